(* C18 — classical lifting-line limits.  Statements only.
   What is proved here is the analytic side the code is compared with: Prandtl's elliptic solution and its closed forms, the roll-damping
   mode, the planform integrals (area factor, mean aerodynamic chord) and the monotone behaviour of the trapezoid area under grid refinement.
   That the discretised horseshoe system of the code converges to these values (within 0.5 % for N >= 20, first order for linear spacing) is a
   numerical statement about the implementation: it is measured on every run by harness/props/C18.py, NOT proved. *)
From Coq Require Import Reals Lra List.
From Coquelicot Require Import Coquelicot.
From MuxV Require Import Proofs.PrandtlP.
Import ListNotations.
Local Open Scope R_scope.

(* with Prandtl's uniform downwash G0/(2b) of an elliptic circulation, the lifting-line equation holds at every station of an elliptic wing
   for exactly one circulation strength, and then CL = a0 alpha / (1 + a0/(pi RA)), CDi = CL^2 / (pi RA) *)
Theorem C18_elliptic_closed_forms : forall b cr V a0 alpha G0, 0 < b -> 0 < cr -> 0 < V -> 0 < a0 ->
  let RA := b * b / (PI * b * cr / 4) in
  (G0 = / 2 * V * cr * a0 * alpha / (1 + a0 * cr / (4 * b)) -> forall theta, ll_equation b cr V a0 alpha G0 theta) /\
  ((exists theta, sin theta <> 0 /\ ll_equation b cr V a0 alpha G0 theta) -> G0 = / 2 * V * cr * a0 * alpha / (1 + a0 * cr / (4 * b))) /\
  (G0 = / 2 * V * cr * a0 * alpha / (1 + a0 * cr / (4 * b)) -> CL b cr V G0 = a0 * alpha / (1 + a0 / (PI * RA))) /\
  CDi b cr V G0 = CL b cr V G0 * CL b cr V G0 / (PI * RA).
Proof.
  intros b cr V a0 alpha G0 Hb Hcr HV Ha0 RA. split; [|split; [|split]].
  - intros HG theta. apply ll_equation_iff; auto.
  - intros [theta [Hs He]]. apply ll_equation_iff in He; [destruct He; [contradiction | assumption] | assumption ..].
  - apply CL_closed_form; assumption.
  - apply CDi_closed_form; assumption.
Qed.
Print Assumptions C18_elliptic_closed_forms.

(* roll damping: the sin(2 theta) mode solves the equation for the antisymmetric roll-rate angle, and Cl / pbar = -a0 / (8 (1 + 2 a0/(pi RA))) *)
Theorem C18_roll_damping : forall b cr V a0 pbar A2, 0 < b -> 0 < cr -> 0 < V -> 0 < a0 ->
  let RA := b * b / (PI * b * cr / 4) in
  A2 = / 4 * V * cr * a0 * pbar / (1 + 2 * (a0 * cr / (4 * b))) ->
  (forall theta, sin theta <> 0 -> ll_roll b cr V a0 pbar A2 theta) /\ Cl b cr V A2 = - a0 / (8 * (1 + 2 * a0 / (PI * RA))) * pbar.
Proof.
  split.
  - apply roll_mode_solves; assumption.
  - apply Cl_pbar_closed_form; assumption.
Qed.
Print Assumptions C18_roll_damping.

(* elliptic planform: area factor pi/4 per semispan, S = pi b cr / 4, mean aerodynamic chord 8 cr / (3 pi) *)
Theorem C18_planform_integrals : forall b cr, 0 < cr ->
  is_RInt ell 0 1 (PI / 4) /\
  (is_RInt (fun x => b / 2 * (cr * ell x)) 0 1 (PI * b * cr / 8) /\ 2 * (PI * b * cr / 8) = PI * b * cr / 4) /\
  (is_RInt (fun x => (cr * ell x) * (cr * ell x)) 0 1 (cr * cr * (2 / 3)) /\ is_RInt (fun x => cr * ell x) 0 1 (cr * (PI / 4)) /\
   (cr * cr * (2 / 3)) / (cr * (PI / 4)) = 8 * cr / (3 * PI)).
Proof. intros b cr Hcr. split; [exact RInt_ell | split; [apply elliptic_area | apply elliptic_MAC; exact Hcr]]. Qed.
Print Assumptions C18_planform_integrals.

(* the code integrates areas by the trapezoid rule over the node chords (C12): for the (concave) elliptic chord, adding a node anywhere
   never lowers the integrated area, so nested refinements approach the analytic area monotonically from below *)
Theorem C18_area_monotone_under_refinement : forall pre a m c post, -1 <= a -> c <= 1 -> a < m < c ->
  trap ell (pre ++ a :: c :: post) <= trap ell (pre ++ a :: m :: c :: post).
Proof.
  intros pre a m c post Ha Hc Hm. apply trap_refine, trap_insert_concave; [exact Hm|]. intros u Hu. apply ell_concave; lra.
Qed.
Print Assumptions C18_area_monotone_under_refinement.

Theorem C18_elliptic_chord_concave : forall x y u, -1 <= x <= 1 -> -1 <= y <= 1 -> 0 <= u <= 1 ->
  u * ell x + (1 - u) * ell y <= ell (u * x + (1 - u) * y).
Proof. exact ell_concave. Qed.
Print Assumptions C18_elliptic_chord_concave.
