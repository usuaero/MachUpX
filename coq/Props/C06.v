(* C06 — equivalent input descriptions (units, encodings) give identical results.  Statements only. *)
From Coq Require Import Reals Lra List QArith Qabs Qreals String Bool.
From Interval Require Import Tactic.
From MuxV Require Import Base.Num Base.Vec3 Base.RInst Base.Interp Model.Helpers Model.ImportValue Model.AeroState
  Proofs.HelpersP Proofs.InterpP Proofs.ImportValueP Live.LiveTables.
Import ListNotations.
Open Scope string_scope.
Open Scope list_scope.

(* ---- the unit tables read from the running code ---- *)
(* exact SI value of one unit (NIST SP 811), and its measurement class *)
Inductive uclass := Length | Velocity | Area | Density | Force | Angle | AngRate.
Definition lbf_N : Q := 44482216152605 # 10000000000000.
Definition ft_m : Q := 3048 # 10000.
Definition spec_unit (u : string) : option (uclass * option Q) :=
  if String.eqb u "ft" then Some (Length, Some ft_m) else
  if String.eqb u "in" then Some (Length, Some (254 # 10000)) else
  if String.eqb u "m" then Some (Length, Some 1) else
  if String.eqb u "cm" then Some (Length, Some (1 # 100)) else
  if String.eqb u "ft/s" then Some (Velocity, Some ft_m) else
  if String.eqb u "m/s" then Some (Velocity, Some 1) else
  if String.eqb u "mph" then Some (Velocity, Some (44704 # 100000)) else
  if String.eqb u "kph" then Some (Velocity, Some (1000 # 3600)) else
  if String.eqb u "kn" then Some (Velocity, Some (1852 # 3600)) else
  if String.eqb u "ft^2" then Some (Area, Some (ft_m * ft_m)) else
  if String.eqb u "m^2" then Some (Area, Some 1) else
  if String.eqb u "slug/ft^3" then Some (Density, Some (lbf_N / (ft_m * ft_m * ft_m * ft_m))) else
  if String.eqb u "kg/m^3" then Some (Density, Some 1) else
  if String.eqb u "lbf" then Some (Force, Some lbf_N) else
  if String.eqb u "N" then Some (Force, Some 1) else
  if String.eqb u "deg" then Some (Angle, Some 1) else          (* angles: the default is degrees in both systems *)
  if String.eqb u "rad" then Some (Angle, None) else            (* 180/pi: see C06_angle_factors *)
  if String.eqb u "rad/s" then Some (AngRate, Some 1) else      (* rates: the default is rad/s in both systems *)
  if String.eqb u "deg/s" then Some (AngRate, None) else None.
(* SI value of the English default unit of each class *)
Definition english_default (c : uclass) : Q :=
  match c with
  | Length | Velocity => ft_m | Area => ft_m * ft_m
  | Density => lbf_N / (ft_m * ft_m * ft_m * ft_m) | Force => lbf_N | Angle | AngRate => 1
  end.
Definition tol : Q := 1 # 1000000.
Definition qclose (a b : Q) : bool := Qle_bool (Qabs (a - b)) (tol * Qabs b).

(* a row (unit, to-English factor, to-SI factor) is consistent iff both factors are present and
   si = exact(u) and en * exact(English default) = exact(u), to the 1e-6 the table prints *)
Definition row_ok (row : string * option Q * option Q) : bool :=
  let '(u, en, si) := row in
  match spec_unit u, en, si with
  | Some (c, Some ex), Some e, Some s => qclose s ex && qclose (e * english_default c) ex
  | Some (c, None), Some e, Some s => Qeq_bool e s     (* angular: the same number in both systems *)
  | _, _, _ => false
  end.

Theorem C06_unit_tables_consistent :
  forallb row_ok live_units = true /\ live_unknown_unit_raises = true /\ live_dash_is_identity = true.
Proof. vm_compute. repeat split. Qed.
Print Assumptions C06_unit_tables_consistent.

Definition live_factor (u : string) : Q :=
  match find (fun r => String.eqb (fst (fst r)) u) live_units with
  | Some (_, Some e, _) => e | _ => 0 end.
Theorem C06_angle_factors :
  (Rabs (Q2R (live_factor "rad") - 180 / PI) <= 1 / 1000000)%R /\
  (Rabs (Q2R (live_factor "deg/s") - PI / 180) <= 1 / 100000000)%R.
Proof.
  split.
  - let v := eval vm_compute in (live_factor "rad") in change (live_factor "rad") with v.
    interval.
  - let v := eval vm_compute in (live_factor "deg/s") in change (live_factor "deg/s") with v.
    interval.
Qed.
Print Assumptions C06_angle_factors.

(* ---- import_value: annotated values are imported as their pre-converted counterparts ---- *)
Section Import.
  Variable factor : string -> option R.
  Notation imp := (import_value factor).
  Notation known := (known factor).
  Theorem C06_annotated_equals_preconverted :
    (forall z, imp (PInt z) = imp (PFloat (IZR z))) /\
    (forall x u f, known u f -> imp (PList [PFloat x; PStr u]) = imp (PFloat (f x))) /\
    (forall a b c u f, known u f ->
       imp (PList [PFloat a; PFloat b; PFloat c; PStr u]) = imp (PList [PFloat (f a); PFloat (f b); PFloat (f c)])) /\
    (forall a b c d u f, known u f ->
       imp (PList [PFloat a; PFloat b; PFloat c; PFloat d; PStr u]) =
       imp (PList [PFloat (f a); PFloat (f b); PFloat (f c); PFloat (f d)])) /\
    (forall c u f, known u f -> imp (PList [PStr "elliptic"; PFloat c; PStr u]) = imp (PList [PStr "elliptic"; PFloat (f c)])) /\
    (forall rows u1 u2 f1 f2, rows <> [] -> known u1 f1 -> known u2 f2 ->
       imp (PList (map row2 rows ++ [PList [PStr u1; PStr u2]])) =
       imp (PList (map row2 (map (fun r => (f1 (fst r), f2 (snd r))) rows)))) /\
    (forall x u, u <> "-" -> factor (strip u) = None -> imp (PList [PFloat x; PStr u]) = IRaise EIOError) /\
    imp PNone = IRaise EIOError.
  Proof.
    split; [intros; reflexivity|].
    split; [intros; apply scalar_units; assumption|].
    split; [intros; apply vector3_units; assumption|].
    split; [intros; apply vector4_units; assumption|].
    split; [intros; apply elliptic_units; assumption|].
    split; [intros; apply array2_units; assumption|].
    split; [intros; apply scalar_unknown_unit; assumption|].
    apply missing_key.
  Qed.
End Import.
Print Assumptions C06_annotated_equals_preconverted.

(* ---- a constant given as an array is the constant; tables reproduce their nodes ---- *)
Theorem C06_const_array_eq_scalar : forall (c s s0 s1 : R),
  interp s [(s0, c); (s1, c)] = c.
Proof. intros. apply interp_const; [discriminate | repeat constructor]. Qed.
Print Assumptions C06_const_array_eq_scalar.

(* ---- Euler angles are stored as the unit quaternion of the same attitude; stab/wind rate frames ---- *)
Theorem C06_orientation_and_rate_frames :
  (forall phi theta psi, quat_norm2 (euler_to_quat cos sin phi theta psi) = 1%R) /\
  (forall a p q r, quat_inv_trans (quat_conj (euler_to_quat cos sin 0 a 0)) (V3 p q r) =
                   V3 (cos a * p - sin a * r) q (sin a * p + cos a * r))%R.
Proof. split; [apply euler_to_quat_unit | apply stab_rates_rotation]. Qed.
Print Assumptions C06_orientation_and_rate_frames.
