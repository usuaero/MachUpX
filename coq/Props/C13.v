(* C13 — multi-aircraft scenes: order independence, add/remove identity, selection.  Statements only.
   (The isolation limit - loads tend to the isolated values as the separation grows - is NOT proved; it is exercised.) *)
From Coq Require Import Reals Lra List Bool Arith Lia Permutation String.
From MuxV Require Import Base.Num Base.Vec3 Base.RInst Model.Kernel Model.Residual Model.SceneFSM Model.Select
  Proofs.KernelP Proofs.SceneFSMP.
Import ListNotations.
Local Open Scope R_scope.

(* the velocity induced at a control point is the sum over all horseshoes in the scene of influence x strength; it does not depend
   on the order in which the horseshoes (hence the aircraft) are stored *)
Theorem C13_order_independence : forall (Vr Vr' : list (v3 R)) (g g' : list R),
  List.length Vr = List.length g -> List.length Vr' = List.length g' -> Permutation (combine Vr g) (combine Vr' g') ->
  induced Vr g = induced Vr' g'.
Proof. intros Vr Vr' g g' _ _ H. rewrite !induced_pairs. apply ind_pairs_perm, H. Qed.
Print Assumptions C13_order_independence.

(* adding an aircraft (under a name not yet used) and removing it again restores the aircraft list, and the scene is coherent again:
   by C07 every later result is computed from exactly the original aircraft with a freshly assembled geometry *)
Theorem C13_add_remove_identity : forall s a,
  (geo s = geo_of (acs s) /\ (solved s = true -> snap s = acs s)) ->
  has_name (a_name a) (acs s) = false -> acs s <> [] ->
  let s' := fst (run s [AddAircraft a; RemoveAircraft (a_name a)]) in
  acs s' = acs s /\ geo s' = geo_of (acs s') /\ (solved s' = true -> snap s' = acs s').
Proof. intros s a Hinv Hf Hne. destruct (add_remove_identity s a Hinv Hf) as [H1 [H2 H3]]. repeat split; assumption. Qed.
Print Assumptions C13_add_remove_identity.

(* analyses restricted to named aircraft report only those; no name = all aircraft; anything else is an input error *)
Theorem C13_selection : forall names,
  get_aircraft names ANone = Names names /\
  (forall l, get_aircraft names (AList l) = Names l) /\
  (forall s, get_aircraft names (AStr s) = Names [s]) /\
  get_aircraft names AOther = SelError /\
  (forall n, single_default [n] None = Names [n]) /\
  (forall a b r, single_default (a :: b :: r) None = SelError) /\ single_default [] None = SelError.
Proof. repeat split. Qed.
Print Assumptions C13_selection.

(* ---------------------------------------------------------------------------------------------------------------------------------
   The isolation limit, as far as it is a theorem: how fast one vortex element's influence falls off.
   A straight (bound or joint) segment of length L whose ends are seen at distances ma, mb, within 90 degrees of each other:
       |K|^2 <= (ma + mb)^2 L^2 / (2 (ma mb)^3)       i.e.  O(L / D^2);
   a semi-infinite trailing filament seen at perpendicular distance h = |u x r| from its line:  |K| h <= 2, i.e. O(1/h) -
   there is no decay along a wake, only away from it (an aircraft flying in another's wake is never "isolated"). *)
From Coq Require Import Reals.
From MuxV Require Import Base.Num Base.Vec3 Base.RInst Model.Kernel.
Local Open Scope R_scope.
Theorem C13_influence_decays :
  (forall ra rb : v3 R, 0 < vnorm ra -> 0 < vnorm rb -> 0 <= vdot ra rb ->
     let ma := vnorm ra in let mb := vnorm rb in let L2 := vdot (vsub rb ra) (vsub rb ra) in
     vnorm2 (seg_kernel ra rb) <= (ma + mb) * (ma + mb) * L2 / (2 * (ma * mb) * (ma * mb) * (ma * mb))) /\
  (forall cutoff (u r : v3 R), vdot u u = 1 -> 0 <= cutoff -> cutoff < trail_denom u r ->
     vnorm2 (trail_kernel (fun x => x) cutoff u r) * vnorm2 (vcross u r) <= 4).
Proof. split; [exact seg_kernel_decay | exact trail_kernel_decay]. Qed.
Print Assumptions C13_influence_decays.
(* the hypotheses are satisfiable: a filament along x seen from one unit to its side; a unit segment seen from ten units away *)
Example C13_decay_nonvacuous :
  (vdot (V3 1 0 0 : v3 R) (V3 1 0 0) = 1 /\ 0 <= 1e-13 /\ 1e-13 < trail_denom (V3 1 0 0 : v3 R) (V3 0 1 0)) /\
  (0 < vnorm (V3 10 0 0 : v3 R) /\ 0 <= vdot (V3 10 0 0 : v3 R) (V3 10 1 0)).
Proof.
  unfold trail_denom, vnorm, vnorm2, vdot; cbn [vx vy vz]; rnum.
  replace (0 * 0 + 1 * 1 + 0 * 0) with 1 by lra. rewrite sqrt_1.
  replace (10 * 10 + 0 * 0 + 0 * 0) with (10 * 10) by lra. rewrite sqrt_square by lra.
  repeat split; lra.
Qed.
