(* C20 — files, CLI runs and exports agree with the API; inputs are never mutated.  Statements only.
   (Equality of file contents with the API results, absence of aliasing of the caller's dictionaries and the geometric content of
    the exported outlines are runtime facts: they are exercised by the harness on every run, not proved.) *)
From Coq Require Import List String Bool Arith.
From MuxV Require Import Model.Validate Model.Export Proofs.ExportP.
Import ListNotations.
Open Scope string_scope.
Open Scope list_scope.

(* default file names: only the extension of the input name is replaced, for every input name *)
Theorem C20_default_names : forall b key,
  let input := (b ++ ".json")%string in
  default_filename input "export_stl" = Some (b ++ ".stl")%string /\
  default_filename input "export_vtk" = Some (b ++ ".vtk")%string /\
  default_filename input "distributions" = Some (b ++ "_distributions.csv")%string /\
  (key <> "export_stl" -> key <> "export_vtk" -> key <> "distributions" ->
   default_filename input key = if extension_ok "display" key then None else Some (b ++ "_" ++ key ++ ".json")%string).
Proof. exact default_names. Qed.
Print Assumptions C20_default_names.

(* the runner calls exactly the known commands of "run", once each, in the order given, and skips the others; a given filename is kept *)
Theorem C20_dispatch : forall methods input run,
  map fst (run_cli methods input run) = filter (fun k => mem k methods) (map fst run) /\
  (forall key f, In (key, f) (run_cli methods input run) ->
     mem key methods = true /\ exists given, In (key, given) run /\ f = match given with Some g => Some g | None => default_filename input key end) /\
  (forall key given r, mem key methods = false -> run_cli methods input ((key, given) :: r) = run_cli methods input r).
Proof.
  split; [apply run_cli_calls|]. split; [intros key f; apply run_cli_filenames | intros; apply run_cli_unknown_skipped; assumption].
Qed.
Print Assumptions C20_dispatch.

(* STL assembly: the six vertex slots of the panels tile the vertex array exactly (every position belongs to exactly one panel), each panel
   contributes two triangles whose vertices are exactly the four corners of its quadrilateral, the aircraft's facets are the segments'
   triples in order, and the left-hand quadrilateral is the reversed mirror image of the right-hand one *)
Theorem C20_stl_panels : forall R N, 2 <= R ->
  (forall i j k, i < N -> j < R - 1 -> k < 6 -> slot R i j + k < 3 * num_facets N R /\ decode R (slot R i j + k) = (i, j, k)) /\
  (forall v, v < 3 * num_facets N R -> let '(i, j, k) := decode R v in i < N /\ j < R - 1 /\ k < 6 /\ slot R i j + k = v).
Proof.
  intros R N HR. split; [intros i j k; apply slot_code | intro v; apply slot_decode].
Qed.
Print Assumptions C20_stl_panels.

Theorem C20_two_triangles_per_quad : forall (A : Type) (b : bool) (v0 v1 v2 v3 : A),
  List.length (two_tris b v0 v1 v2 v3) = 6 /\ forall x, In x (two_tris b v0 v1 v2 v3) <-> In x [v0; v1; v2; v3].
Proof. split; [apply two_tris_length | intro x; apply two_tris_cover]. Qed.
Print Assumptions C20_two_triangles_per_quad.

Theorem C20_facets_of_aircraft : forall (A : Type) (segs : list (list A)) (ns : list nat),
  Forall2 (fun s n => List.length s = 3 * n) segs ns ->
  List.concat (airplane_facets segs) = List.concat segs /\ List.length (airplane_facets segs) = fold_right Nat.add 0 ns.
Proof. intros A segs ns. apply airplane_facets_spec. Qed.
Print Assumptions C20_facets_of_aircraft.

Theorem C20_mirror_quads : forall (A : Type) (M : A -> A) (rootR tipR rootL tipL : nat -> A) j,
  (forall n, rootL n = M (rootR n)) -> (forall n, tipL n = M (tipR n)) ->
  quad_left rootL tipL j = map M (rev (quad_right rootR tipR j)).
Proof. intros A M. apply quad_mirror. Qed.
Print Assumptions C20_mirror_quads.

Example C20_nonvacuous :
  run_cli ["solve_forces"; "distributions"; "export_stl"] "dir.json.d/in.json"
          [("solve_forces", None); ("bogus", None); ("distributions", Some "d.csv"); ("export_stl", None)]
  = [("solve_forces", Some "dir.json.d/in_solve_forces.json"); ("distributions", Some "d.csv"); ("export_stl", Some "dir.json.d/in.stl")].
Proof. reflexivity. Qed.

(* the rows of the distributions file are attributed to aircraft and segments by name: with the name columns as wide as the longest name
   (at least 18 characters; fix a7579e9) every label in the file is the name itself, so distinct segments keep distinct labels; with the
   fixed width of 18 characters of the pinned snapshot the two halves of a wing whose name has more than 12 characters share one label *)
Theorem C20_csv_labels : forall names a b, In a names -> In b names ->
  csv_label (name_width names) a = a /\ (csv_label (name_width names) a = csv_label (name_width names) b -> a = b).
Proof. intros names a b Ha Hb. split; [exact (csv_labels_are_names names a Ha) | exact (csv_labels_injective names a b Ha Hb)]. Qed.
Print Assumptions C20_csv_labels.
Example C20_fixed_width_refuted :
  csv_label 18 "main_wing_outboard_panel_left" = csv_label 18 "main_wing_outboard_panel_right" /\
  "main_wing_outboard_panel_left" <> "main_wing_outboard_panel_right" /\
  In "main_wing_outboard_panel_left" ["main_wing_outboard_panel_left"; "main_wing_outboard_panel_right"].
Proof. split; [reflexivity | split; [discriminate | left; reflexivity]]. Qed.
