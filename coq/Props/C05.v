(* C05 — dynamic similarity: length, speed and density scaling.  Statements only. *)
From Coq Require Import Reals Lra List Bool.
From MuxV Require Import Base.Num Base.Vec3 Base.RInst Model.Helpers Model.Kernel Model.Residual Model.Integrate
  Proofs.HelpersP Proofs.KernelP Proofs.ResidualEqP Proofs.SceneEqP.
Import ListNotations.
Local Open Scope R_scope.

Section Length.
  Variable k : R.
  Hypothesis kpos : 0 < k.
  Definition scale_point (x : v3 R) : v3 R := vscale k x.
  Definition scale_hs (h : hshoe R) : hshoe R :=
    mk_hs (scale_point (hP0 h)) (scale_point (hP1 h)) (scale_point (hJ0 h)) (scale_point (hJ1 h)) (hu0 h) (hu1 h).

  (* every influence vector (bound, jointed, trailing) is homogeneous of degree -1 in length; the absolute cut-off of the trailing
     filaments corresponds to cut-off/k^2 in the unscaled scene *)
  Theorem C05_influence_scales : forall cutoff i4p diag pc h,
    vji (fun x => x) (k * k * cutoff) i4p diag (scale_point pc) (scale_hs h) = vscale (1 / k) (vji (fun x => x) cutoff i4p diag pc h).
  Proof.
    intros cutoff i4p diag pc h.
    pose proof (vji_sim idO 1 (fun a b => eq_refl) (fun a b => eq_refl) (fun a b => eq_refl) (fun a b => eq_sym (vscale_1_l _)) k vzero kpos cutoff i4p diag pc h) as H.
    unfold Sh in H. unfold Sp, idO in H.
    rewrite !vadd_0_r in H. exact H.
  Qed.

  (* geometrically scaled control point: lengths x k, areas x k^2, rates x 1/k so that rotational velocities are unchanged *)
  Definition scale_cpt (c : cpt R) : cpt R :=
    mk_cpt (vscale k (cdl c)) (cua c) (cun c) (cus c) (k * k * cdS c) (k * ccbar c) (cnu c) (csos c) (ccsi c) (cvinf c) (cvrot c).

  (* with Reynolds-independent section data: circulation scaled by k => residual scaled by k^2, for every option combination;
     so the scaled scene is solved by k x the circulation of the original one *)
  Theorem C05_length_scaling : forall atan2 opt cs Ss Vm g, Forall (re_independent) Ss ->
    residual atan2 opt (map scale_cpt cs) Ss (map (map (vscale (1 / k))) Vm) (map (Rmult k) g) =
    map (Rmult (k * k)) (residual atan2 opt cs Ss Vm g).
  Proof.
    intros atan2 opt cs Ss Vm g Hs.
    pose proof (residual_sim idO (fun a b => eq_refl) (fun a b => eq_refl) (fun a b => eq_refl) 1 (Rmult_1_l 1) (fun a b => eq_sym (vscale_1_l _)) k kpos atan2 opt cs Ss Vm g
                  (or_intror Hs)) as H.
    assert (Ec : map (Tc idO 1 k) cs = map scale_cpt cs).
    { apply map_ext. intros c. unfold Tc, scale_cpt. rewrite Rmult_1_r, vscale_1_l. reflexivity. }
    rewrite Ec in H. exact H.
  Qed.
End Length.
Print Assumptions C05_influence_scales.
Print Assumptions C05_length_scaling.

(* airspeed scaling: all velocities (freestream and rotational, i.e. rates x lam) x lam and circulation x lam => residual x lam^2,
   for Reynolds- and Mach-independent section data *)
Theorem C05_speed_scaling : forall lam atan2 opt c S Vr g gi, 0 < lam ->
  (forall y x, atan2 (lam * y) (lam * x) = atan2 y x) -> rm_independent S ->
  residual_at atan2 opt (Tl lam c) S Vr (map (Rmult lam) g) (lam * gi) = lam * lam * residual_at atan2 opt c S Vr g gi.
Proof. intros. apply residual_at_speed; assumption. Qed.
Print Assumptions C05_speed_scaling.

(* density does not enter the lifting-line equation at all (the control-point record carries none); the vortex force is linear in
   it, so forces scale with rho and coefficients are unchanged *)
Theorem C05_density_scaling : forall atan2 opt (c : cpt R) (p : ipt R) v g mu,
  let p' := mk_ipt (irCG p) (mu * irho p) (iua_un p) (iun_un p) (iCD p) (iCm p) in
  dFi (section_load atan2 opt (1/2) c p' v g) = vscale mu (dFi (section_load atan2 opt (1/2) c p v g)).
Proof.
  intros. unfold section_load. cbn [dFi irho p']. vec.
Qed.
Print Assumptions C05_density_scaling.

(* ---------------------------------------------------------------------------------------------------------------------------------
   The part of H_geom_scale that concerns the general (Reid-Hunsaker) corrections is a theorem: when every length of the wing data
   (control points, nodes, span coordinates, chords) is multiplied by k and the blending parameter - which the code computes from
   the semispan - is divided by k^2, the effective lifting lines and the joints seen by every control point are the scaled ones.
   (Model/Reid.v is tied to airplane.py's arrays by the C12 correspondence.) *)
From MuxV Require Import Model.Reid Proofs.ReidP.
Theorem C05_effective_lines_scale : forall k, 0 < k -> forall (w : list (sec R)) (i : sec R),
  reid_row exp (map (sec_scale k) w) (sec_scale k i) = scale4 k (reid_row exp w i).
Proof. exact reid_row_scale. Qed.
Print Assumptions C05_effective_lines_scale.
Theorem C05_blending_parameter_scales : forall k, 0 < k -> forall b bd cs,
  sigma_blend (k * b) bd cs = sigma_blend b bd cs / (k * k).
Proof. intros k _. exact (sigma_blend_scale k). Qed.
Print Assumptions C05_blending_parameter_scales.
(* ... and so is the part that concerns the lifting line on Kuchemann's locus (Model/Kuchemann.v, tied to the stored table by the C12
   correspondence): scaling semispan and chords by k leaves the aspect ratio and every offset - a fraction of the local chord - unchanged *)
From MuxV Require Import Model.Kuchemann Proofs.KuchemannP.
Theorem C05_kuchemann_offset_scales : forall fcos ftan fpow pi k, k <> 0 ->
  (forall b mean_chord, mean_chord <> 0 -> aspect (k * b) (k * mean_chord) = aspect b mean_chord) /\
  (forall CLa RA sw b loc c, offset_at fcos ftan fpow pi CLa RA sw (k * b) loc (k * c) = offset_at fcos ftan fpow pi CLa RA sw b loc c).
Proof.
  intros fcos ftan fpow pi k Hk. split.
  - intros b mc _. apply aspect_scale, Hk.
  - intros. apply offset_scale. exact Hk.
Qed.
Print Assumptions C05_kuchemann_offset_scales.
