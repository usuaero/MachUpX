(* C07 — results always reflect the current state, whatever the call history.  Statements only.
   Model: Model/SceneFSM.v (flags, caches and the perturb/restore skeleton of every analysis). *)
From Coq Require Import List Bool Arith.
From MuxV Require Import Model.SceneFSM Proofs.SceneFSMP.
Import ListNotations.

(* coherent scene: the Earth-frame geometry cache is the assembly of the current aircraft (names, descriptions, poses),
   and if the solved flag is up the stored section data were computed from the current aircraft states *)
Definition coherent (s : scene) : Prop :=
  geo s = map (fun a => (a_name a, a_geom a, a_pose a)) (acs s) /\ (solved s = true -> snap s = acs s).

(* a query result is current when it was computed from the current aircraft states with a geometry cache assembled from exactly those *)
Definition current (o : output) : Prop :=
  match o with
  | OSolve st g => g = map (fun a => (a_name a, a_geom a, a_pose a)) st
  | ODist cur st g => st = cur /\ g = map (fun a => (a_name a, a_geom a, a_pose a)) cur
  | OError => True
  end.

(* for every finite sequence of public calls, starting from any coherent scene (in particular the empty one), every result
   produced along the way - including the solves made inside analyses - is current, and the scene stays coherent *)
Theorem C07_queries_fresh : forall (ops : list op) (s : scene), coherent s ->
  coherent (fst (run s ops)) /\ Forall current (snd (run s ops)).
Proof. intros ops s H. exact (run_inv ops s H). Qed.
Print Assumptions C07_queries_fresh.

Theorem C07_new_scene_is_coherent : coherent init.
Proof. exact init_inv. Qed.
Print Assumptions C07_new_scene_is_coherent.

(* non-vacuity: a history with a velocity-only state change followed by distributions() - the stored section data are
   recomputed, not served from the earlier state *)
Example C07_history_example :
  let a := mk_ac 1 7 0 0 0 in
  snd (run init [AddAircraft a; SolveForces; SetState 1 0 5; Distributions]) =
  [OSolve [a] [(1, 7, 0)]; OSolve [mk_ac 1 7 0 5 0] [(1, 7, 0)]; ODist [mk_ac 1 7 0 5 0] [mk_ac 1 7 0 5 0] [(1, 7, 0)]].
Proof. reflexivity. Qed.

(* the same statement one level below the scene, where Python's reference semantics live (Model/Alias.v, Proofs/AliasP.v; fix ebac569): a
   position handed over as the caller's own array.  With the aircraft keeping a copy, for every history of hand-overs, in-place edits of
   the caller's arrays and queries, every query is answered with the geometry built for the aircraft's own current position - an edit
   changes nothing until the array is handed over again, and then the geometry follows.  Keeping the reference, as the pinned snapshot
   did, refutes it on a four-call history (a simulation loop that re-uses its position array). *)
From Coq Require Import ZArith.
From MuxV Require Model.Alias Proofs.AliasP.
Theorem C07_caller_arrays : forall (es : list Alias.ev) (s : Alias.st), AliasP.coherent s ->
  Forall (fun o => fst o = snd o) (Alias.run true s es).
Proof. intros es s H. exact (AliasP.copy_queries_fresh es s H). Qed.
Print Assumptions C07_caller_arrays.
Theorem C07_caller_arrays_by_reference_refuted :
  Alias.run false (Alias.init [[0; 0; -1000]%Z] [0; 0; 0]%Z)
            [Alias.SetState 0; Alias.CallerWrites 0 [0; 0; -30000]%Z; Alias.SetState 0; Alias.Query]
  = [([0; 0; -30000]%Z, [0; 0; -1000]%Z)].
Proof. reflexivity. Qed.
Print Assumptions C07_caller_arrays_by_reference_refuted.
Example C07_caller_arrays_nonvacuous : AliasP.coherent (Alias.init [[0; 0; -1000]%Z] [0; 0; 0]%Z).
Proof. exists [0; 0; 0]%Z. split; reflexivity. Qed.
