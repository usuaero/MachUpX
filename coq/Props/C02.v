(* C02 — loads are the integral of the section loads; all reports agree. *)
From Coq Require Import Reals Lra List Bool String.
From MuxV Require Import Base.Num Base.Vec3 Base.RInst Model.Helpers Model.Kernel Model.Residual Model.Integrate
  Proofs.HelpersP Proofs.IntegrateP.
Import ListNotations.
Local Open Scope R_scope.

(* ---- section loads (documented default solver options) ---- *)
Theorem C02_section_loads : forall atan2 (c : cpt R) (p : ipt R) (v : v3 R) (g : R),
  let L := section_load atan2 (mk_opts true true true false) (1/2) c p v g in
  let vip := vsub v (vscale (vdot (cus c) v) (cus c)) in
  (* vortex force rho Gamma (v x dl) *)
  dFi L = vscale (irho p * g) (vcross v (cdl c)) /\
  (* parasitic drag along the local velocity, redimensionalised with the full local speed *)
  dFv L = vscale ((1/2) * irho p * vdot v v * cdS c * o_CD L) (vdivs v (sqrt (vdot v v))) /\
  (* moments about the CG plus the section pitching moment about the local span axis (in-plane dynamic pressure) *)
  dMi L = vadd (vcross (irCG p) (dFi L)) (vscale ((1/2) * irho p * vdot vip vip * cdS c * ccbar c * o_Cm L) (cus c)) /\
  dMv L = vcross (irCG p) (dFv L).
Proof. intros. repeat split; reflexivity. Qed.
Print Assumptions C02_section_loads.

(* ---- the table: for every key, total = inviscid + viscous and the segments sum to the total ---- *)
Theorem C02_total_is_inviscid_plus_viscous : forall r dimensional f uinf (inv vis : fm) k,
  value r dimensional (in_frame f uinf (fm_add vis inv)) k =
  value r dimensional (in_frame f uinf vis) k + value r dimensional (in_frame f uinf inv) k.
Proof. intros; apply value_add. Qed.
Print Assumptions C02_total_is_inviscid_plus_viscous.

Theorem C02_segments_sum_to_total : forall r dimensional f uinf (segs : list fm) k,
  value r dimensional (in_frame f uinf (fm_sum segs)) k =
  fold_right Rplus 0 (map (fun x => value r dimensional (in_frame f uinf x) k) segs).
Proof.
  intros r d f u l k. unfold fm_sum. rewrite (fold_left_hom fm_add Rplus _ (fun x y => value_add r d f u x y k)), value_zero.
  apply fold_symmetric; [symmetry; apply Rplus_assoc | apply Rplus_comm].
Qed.
Print Assumptions C02_segments_sum_to_total.

(* every coefficient is its dimensional counterpart divided by 1/2 rho V^2 S (x l_lon for pitch, l_lat for roll/yaw) *)
Theorem C02_coefficients : forall r x k,
  rrho r * rVinf r * rVinf r * rS r <> 0 -> rlon r <> 0 -> rlat r <> 0 ->
  value r false x k * ((1/2) * rrho r * rVinf r * rVinf r * rS r *
     match k with 0%nat | 1%nat | 2%nat => 1 | 4%nat => rlon r | _ => rlat r end) = value r true x k.
Proof.
  intros r x k H1 H2 H3. unfold value. rewrite Rmult_assoc.
  transitivity (comp x k * 1); [apply f_equal, nondim_inverse; assumption | apply Rmult_1_r].
Qed.
Print Assumptions C02_coefficients.

(* ---- wind and stability frames are exact rotations of the body-frame vectors defined by the freestream ---- *)
Theorem C02_wind_and_stability_axes : forall u v w, 0 < u * u + w * w ->
  let V := sqrt (u * u + v * v + w * w) in
  let m := sqrt (u * u + w * w) in
  let ui := V3 (- u / V) (- v / V) (- w / V) in        (* freestream direction in body axes *)
  (* (drag, side, lift) axes are orthonormal; lift is normal to the freestream and to body-y *)
  vdot ui ui = 1 /\ vdot (u_lift ui) (u_lift ui) = 1 /\ vdot (u_side ui) (u_side ui) = 1 /\
  vdot ui (u_lift ui) = 0 /\ vdot ui (u_side ui) = 0 /\ vdot (u_lift ui) (u_side ui) = 0 /\ vdot (u_lift ui) ey = 0 /\
  (* stability axes = body axes rotated about y by alpha, cos alpha = u/m, sin alpha = w/m *)
  (forall a, to_stab ui a = V3 ((u * vx a + w * vz a) / m) (vy a) ((- w * vx a + u * vz a) / m)).
Proof.
  intros u v w Huw V m ui. pose proof (Rle_0_sqr v) as Hv. unfold Rsqr in Hv.
  assert (HV : 0 < V) by (apply sqrt_lt_R0; lra).
  assert (HV2 : V * V = u * u + v * v + w * w) by (apply sqrt_sqrt; lra).
  assert (Hm : 0 < m) by (apply sqrt_lt_R0; lra).
  assert (Hm2 : m * m = u * u + w * w) by (apply sqrt_sqrt; lra).
  destruct (triad_orthonormal ui (uinf_unit u v w V HV HV2) (uinf_not_y u v w V m HV Hm Hm2)) as (T1 & T2 & T3 & T4 & T5 & T6 & T7).
  repeat split; try assumption. apply to_stab_eq; assumption.
Qed.
Print Assumptions C02_wind_and_stability_axes.

(* the per-section distributions sum to the body-frame totals *)
Theorem C02_section_sums : forall q (l : list (v3 R)), quat_trans q (vsum l) = vsum (map (quat_trans q) l).
Proof.
  intros q l. unfold vsum. rewrite (fold_left_hom vadd vadd _ (trans_add q)), (lin_zero _ (trans_scale q)). reflexivity.
Qed.
Print Assumptions C02_section_sums.

(* ---- only the requested frames / dimensional kinds appear, each with its six components ---- *)
Theorem C02_keys_exactly_requested : forall ro r uinf p seg x e,
  In e (entries_for ro r uinf p seg x) <->
  exists d f k, In d (dims_of ro) /\ In f (frames_of ro) /\ (k < 6)%nat /\
                e = (p, key_name d f k, seg, value r d (in_frame f uinf x) k).
Proof.
  intros. unfold entries_for. rewrite in_flat_map. split.
  - intros (d & Hd & H). apply in_flat_map in H as (f & Hf & H). apply in_map_iff in H as (k & E & Hk).
    exists d, f, k. apply (in_seq 6 0) in Hk. repeat split; auto. apply Hk.
  - intros (d & f & k & Hd & Hf & Hk & E). exists d. split; [exact Hd|]. apply in_flat_map. exists f. split; [exact Hf|].
    apply in_map_iff. exists k. split; [symmetry; exact E|]. apply (in_seq 6 0). split; [apply Nat.le_0_l | exact Hk].
Qed.
Print Assumptions C02_keys_exactly_requested.

(* non-vacuity: the default request (body + wind, both kinds) yields 24 keys per table level *)
Example C02_default_keys : forall r u x,
  List.length (entries_for (mk_ropts true false true true true false) r u Total None x) = 24%nat.
Proof. reflexivity. Qed.
