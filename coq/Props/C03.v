(* C03 — Body-frame results are invariant under rigid motion; the quaternion algebra is exact.
   This file holds ONLY statements (with their specs written out here) closed by [exact lemma]
   and [Print Assumptions].  Model: Model/Helpers.v (helpers.py 151-262, airplane.py 148-159). *)
From Coq Require Import Reals Lra List.
From MuxV Require Import Base.Num Base.Vec3 Base.RInst Model.Helpers Proofs.HelpersP Model.Flow Proofs.AssembleP.
Local Open Scope R_scope.

(* |q|^2 written out independently of the model *)
Definition unitq (q : quat R) : Prop :=
  qw q * qw q + qx q * qx q + qy q * qy q + qz q * qz q = 1.
Definition len2 (v : v3 R) : R := vx v * vx v + vy v * vy v + vz v * vz v.
Lemma unitq_qn2 q : unitq q -> qn2 q = 1.
Proof. destruct q. exact (fun H => H). Qed.

(* transforming a vector into a frame and back is the identity *)
Theorem C03_there_and_back : forall q v, unitq q ->
  quat_inv_trans q (quat_trans q v) = v /\ quat_trans q (quat_inv_trans q v) = v.
Proof. intros q v H%unitq_qn2; split; [apply inv_trans_trans_unit | apply trans_inv_trans_unit]; exact H. Qed.
Print Assumptions C03_there_and_back.

(* transformations preserve length (and all inner products) for unit quaternions *)
Theorem C03_length_preserved : forall q a b, unitq q ->
  vdot (quat_trans q a) (quat_trans q b) = vdot a b /\
  vdot (quat_inv_trans q a) (quat_inv_trans q b) = vdot a b /\
  len2 (quat_trans q a) = len2 a /\ sqrt (len2 (quat_inv_trans q a)) = sqrt (len2 a).
Proof.
  intros q a b Hq%unitq_qn2.
  repeat split.
  - apply trans_dot_unit, Hq.
  - apply inv_trans_dot_unit, Hq.
  - exact (trans_dot_unit q Hq a a).
  - f_equal. exact (inv_trans_dot_unit q Hq a a).
Qed.
Print Assumptions C03_length_preserved.

(* handedness is preserved: cross products commute with the transformation *)
Theorem C03_cross_equivariant : forall q a b, unitq q ->
  vcross (quat_trans q a) (quat_trans q b) = quat_trans q (vcross a b) /\
  vcross (quat_inv_trans q a) (quat_inv_trans q b) = quat_inv_trans q (vcross a b).
Proof.
  intros q a b Hq%unitq_qn2.
  split; [rewrite trans_cross | rewrite inv_trans_cross]; rewrite Hq; apply vscale_1_l.
Qed.
Print Assumptions C03_cross_equivariant.

(* composition of transformations equals quaternion multiplication; the conjugate is the inverse *)
Theorem C03_composition : forall p q v,
  quat_trans (quat_mult p q) v = quat_trans q (quat_trans p v) /\
  quat_inv_trans (quat_mult p q) v = quat_inv_trans p (quat_inv_trans q v) /\
  quat_trans (quat_conj q) v = quat_inv_trans q v.
Proof. repeat split; [apply trans_mult | apply inv_trans_mult | apply conj_trans]. Qed.
Print Assumptions C03_composition.

(* a quaternion given un-normalised is stored as a unit quaternion describing the same rotation *)
Theorem C03_set_state_normalises : forall q v,
  qw q * qw q + qx q * qx q + qy q * qy q + qz q * qz q <> 0 ->
  unitq (quat_normalize q) /\
  quat_trans (quat_normalize q) v =
    vscale (/ (qw q * qw q + qx q * qx q + qy q * qy q + qz q * qz q)) (quat_trans q v).
Proof.
  intros q v H. assert (Hq : qn2 q <> 0) by (destruct q; exact H).
  split.
  - pose proof (normalize_unit q Hq) as Hn. destruct (quat_normalize q); exact Hn.
  - rewrite (normalize_same_rotation q v Hq). destruct q; reflexivity.
Qed.
Print Assumptions C03_set_state_normalises.

(* non-vacuity: a concrete non-trivial unit quaternion *)
Example C03_unit_example : unitq (Q4 (1/2) (1/2) (-1/2) (1/2)).
Proof. unfold unitq; cbn [qw qx qy qz]; lra. Qed.

(* ---- scene level: a rigid motion of the whole scene rotates every influence vector and leaves the residual unchanged ---- *)
From MuxV Require Import Model.Kernel Model.Residual Proofs.KernelP Proofs.ResidualEqP Proofs.SceneEqP.

Section Rigid.
  Variable q : quat R.                 (* any unit quaternion *)
  Variable t : v3 R.                   (* any translation *)
  Hypothesis Hq : unitq q.
  Let Hq' : qn2 q = 1. Proof. exact (unitq_qn2 q Hq). Qed.
  Definition move_point (x : v3 R) : v3 R := vadd (quat_inv_trans q x) t.
  Definition move_hs (h : hshoe R) : hshoe R :=
    mk_hs (move_point (hP0 h)) (move_point (hP1 h)) (move_point (hJ0 h)) (move_point (hJ1 h))
          (quat_inv_trans q (hu0 h)) (quat_inv_trans q (hu1 h)).

  (* the influence of a moved horseshoe on a moved control point is the rotated influence (bound, jointed and trailing parts,
     including the cut-off decision) *)
  Theorem C03_influence_rotates : forall cutoff i4p diag pc h,
    vji (fun x => x) cutoff i4p diag (move_point pc) (move_hs h) = quat_inv_trans q (vji (fun x => x) cutoff i4p diag pc h).
  Proof.
    intros cutoff i4p diag pc h.
    pose proof (vji_sim (quat_inv_trans q) 1 (inv_trans_add q) (inv_trans_scale q) (inv_trans_dot_unit q Hq') (rot_cross q Hq') 1 t Rlt_0_1 cutoff i4p diag pc h) as H.
    unfold Sh, Sp, Rdiv in H. rewrite Rinv_1, !Rmult_1_l, !vscale_1_l in H. exact H.
  Qed.

  (* moved control point data: every vector rotated, scalars untouched *)
  Definition move_cpt (c : cpt R) : cpt R :=
    mk_cpt (quat_inv_trans q (cdl c)) (quat_inv_trans q (cua c)) (quat_inv_trans q (cun c)) (quat_inv_trans q (cus c))
           (cdS c) (ccbar c) (cnu c) (csos c) (ccsi c) (quat_inv_trans q (cvinf c)) (quat_inv_trans q (cvrot c)).

  (* for every solver-option combination, every section model, every list of control points / influence rows / circulations:
     the lifting-line residual of the moved scene equals that of the original scene; in particular they have the same solutions *)
  Theorem C03_rigid_motion_invariance : forall atan2 opt cs Ss Vm g,
    residual atan2 opt (map move_cpt cs) Ss (map (map (quat_inv_trans q)) Vm) g = residual atan2 opt cs Ss Vm g.
  Proof.
    intros atan2 opt cs Ss Vm g.
    pose proof (residual_sim (quat_inv_trans q) (inv_trans_add q) (inv_trans_scale q) (inv_trans_dot_unit q Hq') 1 (Rmult_1_l 1) (rot_cross q Hq') 1 Rlt_0_1 atan2 opt cs Ss Vm g
                  (or_introl eq_refl)) as H.
    assert (Ec : map (Tc (quat_inv_trans q) 1 1) cs = map move_cpt cs).
    { apply map_ext. intros c. unfold Tc, move_cpt. rewrite !Rmult_1_l, !vscale_1_l. reflexivity. }
    assert (Ev : map (map (TV (quat_inv_trans q) 1)) Vm = map (map (quat_inv_trans q)) Vm).
    { apply map_ext. apply map_ext, TV_1. }
    rewrite Ec, Ev, Rmult_1_l, !map_Rmult_1 in H. exact H.
  Qed.
End Rigid.
Print Assumptions C03_influence_rotates.
Print Assumptions C03_rigid_motion_invariance.

(* the inputs of the residual themselves turn with the scene: for the aircraft re-oriented by a unit quaternion Q (orientation
   quat_mult Q q; Earth-fixed velocity and wind turned by Q) the air velocity at every point of the aircraft and the directions of
   the trailing vortices - free or constrained to the body x-y plane - are the turned ones; with C03_influence_rotates and
   C03_rigid_motion_invariance this covers scene.py's _calc_invariant_flow_properties *)
Theorem C03_flow_rotates : forall (Q : quat R), qn2 Q = 1 -> forall q v wind w r mp c vj,
  v_inf_and_rot (quat_mult Q q) (quat_inv_trans Q v) (quat_inv_trans Q wind) w r = quat_inv_trans Q (v_inf_and_rot q v wind w r) /\
  joint_v_inf mp (quat_mult Q q) (quat_inv_trans Q v) (quat_inv_trans Q wind) w r = quat_inv_trans Q (joint_v_inf mp q v wind w r) /\
  trailing_dir c (quat_mult Q q) (quat_inv_trans Q vj) = quat_inv_trans Q (trailing_dir c q vj).
Proof.
  intros Q HQ q v wind w r mp c vj. split; [apply v_inf_and_rot_rigid|]. split; [apply joint_v_inf_rigid | apply trailing_dir_rigid, HQ].
Qed.
Print Assumptions C03_flow_rotates.

(* ---------------------------------------------------------------------------------------------------------------------------------
   The Earth-frame arrays a scene is solved on are assembled from every aircraft's body-frame arrays, position and attitude
   (scene.py 440-530, Model/Assemble.v; tied to the live scene arrays of multi-aircraft scenes in the C13 run).  Under a rigid motion of
   the whole scene - attitude r q (first r, then q), position t + R_r^-1 p - every assembled control point and node (own aircraft:
   effective line; other aircraft: actual line) is the moved one, directions turn, and the node-to-control-point vectors, which are all
   the influence and the residual see, only turn. *)
From MuxV Require Import Model.Assemble.
Theorem C03_assembly_moves_rigidly : forall (r : quat R) (t : v3 R) (q : quat R) (p : v3 R),
  (forall x, to_earth (moved_q r q) (moved_p r t p) x = move r t (to_earth q p x)) /\
  (forall u, dir_to_earth (moved_q r q) u = quat_inv_trans r (dir_to_earth q u)) /\
  (forall same e a, node_seen same (moved_q r q) (moved_p r t p) e a = move r t (node_seen same q p e a)) /\
  (forall pc node, r_vec (move r t pc) (move r t node) = quat_inv_trans r (r_vec pc node)).
Proof.
  split; [intro; apply to_earth_rigid | split; [intro; apply dir_to_earth_rigid | split; [intros; apply node_seen_rigid | intros; apply r_vec_rigid]]].
Qed.
Print Assumptions C03_assembly_moves_rigidly.
