(* C19 — inputs violating documented constraints are rejected, never silently computed.  Statements only. *)
From Coq Require Import ZArith List Bool String Arith.
From MuxV Require Import Model.Validate Proofs.ValidateP.
Import ListNotations.
Open Scope string_scope.

(* the validation performed while loading and first solving lets a scene through exactly when every documented constraint holds
   (unit system and unit strings, solver type, atmosphere profiles, weight, velocity form, alpha/beta vs vector, rate frame, segment ID,
   side, exactly one span definition, no sweep/dihedral with quarter-chord points, defined airfoils, grid list length / ends / monotone,
   grid type, parent ID, flap-chord distribution ends, main wing or explicit reference) *)
Theorem C19_accepts_iff_documented : forall unit_known sc, scene_errs unit_known sc = [] <-> SceneDoc unit_known sc.
Proof. exact scene_ok. Qed.
Print Assumptions C19_accepts_iff_documented.

(* loads are produced only by a non-empty scene meeting every constraint; any violation, and the empty scene, raise *)
Theorem C19_loads_only_if_documented : forall unit_known sc,
  load_and_solve unit_known sc = Loads <-> (SceneDoc unit_known sc /\ sc_aircraft sc <> []).
Proof. exact loads_only_if_documented. Qed.
Print Assumptions C19_loads_only_if_documented.

Theorem C19_violation_raises : forall unit_known sc, ~ SceneDoc unit_known sc -> load_and_solve unit_known sc = Raises.
Proof. exact violating_input_raises. Qed.
Print Assumptions C19_violation_raises.

Theorem C19_empty_scene_raises : forall unit_known sc, sc_aircraft sc = [] -> load_and_solve unit_known sc = Raises.
Proof. exact empty_scene_raises. Qed.
Print Assumptions C19_empty_scene_raises.

(* aircraft names in the state setters / remove_aircraft / trims, pitch control, file extension: an input file must contain its extension,
   an output file (distributions, export_stl, export_vtk) must end with it - fix d06e743: "d.csv.txt" is not a .csv file *)
Theorem C19_names : forall names,
  (forall g n, resolve_name names g = Acts n -> In n names) /\
  (forall m, ~ In m names -> resolve_name names (Some m) = CallRaises) /\
  (forall a b r, resolve_name (a :: b :: r) None = CallRaises) /\ resolve_name [] None = CallRaises /\
  (forall controls p, trim_control_ok controls p = true <-> In p controls) /\
  (forall ext f, extension_ok ext f = true <-> exists a b, f = (a ++ ext ++ b)%string) /\
  (forall ext f, ends_with ext f = true <-> exists a, f = (a ++ ext)%string).
Proof.
  split; [intros g n; apply resolve_acts|]. split; [apply resolve_unknown|].
  split; [reflexivity|]. split; [reflexivity|]. split; [apply trim_control_spec|]. split; [apply extension_spec | apply ends_with_spec].
Qed.
Print Assumptions C19_names.

(* the hypotheses are satisfiable: a valid description is accepted, and a single violation of each kind is reported *)
Definition ex_seg : segment :=
  {| s_id := 1; s_side := "both"; s_semispan := true; s_qc := false; s_sweep := true; s_dihedral := false; s_airfoils := ["af"];
     s_grid := GList [0; 100; 300; 600; 1000]%Z; s_N := 2; s_parent := 0; s_main := true;
     s_cs := Some {| cs_root := 200; cs_tip := 900; cs_chord_ends := Some (200, 900)%Z |}; s_units := ["ft"] |}.
Definition ex_ac : aircraft :=
  {| a_weight := true; a_airfoils := ["af"]; a_segments := [ex_seg]; a_ref_area := false; a_ref_lon := false; a_ref_lat := false;
     a_state := {| st_velocity := VScalar; st_alpha := true; st_beta := false; st_rate_frame := "body"; st_units := [] |} |}.
Definition ex_sc : scene := {| sc_units := "English"; sc_solver := "nonlinear"; sc_profiles := ["standard"]; sc_aircraft := [ex_ac] |}.
Example C19_nonvacuous :
  load_and_solve (fun u => String.eqb u "ft") ex_sc = Loads /\
  load_and_solve (fun u => String.eqb u "ft") {| sc_units := "english"; sc_solver := "nonlinear"; sc_profiles := []; sc_aircraft := [ex_ac] |} = Raises.
Proof. split; reflexivity. Qed.
