(* C15 — control inputs map to section flap deflections exactly as documented.  Statements only. *)
From Coq Require Import Reals Lra List Bool.
From MuxV Require Import Base.Num Base.RInst Base.Interp Model.Controls Proofs.InterpP Proofs.ShiftP.
Import ListNotations.
Local Open Scope R_scope.

(* for one section: the inputs (degrees) of the mixed controls at that section, each with its mixing factor and symmetry flag *)
Fixpoint mixed_input (left_side : bool) (mx : list (mixing (T:=R))) (s : R) : R :=
  match mx with
  | [] => 0
  | (symmetric, factor, input) :: rest =>
      (if (negb left_side || symmetric)%bool then 1 else -1) * factor * input_at input true s + mixed_input left_side rest s
  end.
Definition clip (sat x : R) : R := if Rlt_dec sat x then sat else if Rlt_dec x (- sat) then - sat else x.

(* delta_i = clip(rad(sum_k mix_k * s_k * u_k(i)), +-sat) inside [root_span, tip_span], 0 elsewhere; s_k = -1 iff left and antisymmetric *)
Theorem C15_delta_flap_spec : forall left_side root tip sat mx s, 0 <= sat ->
  delta_flap (PI / 180) left_side root tip sat mx s =
    if in_surface root tip s then clip sat (mixed_input left_side mx s * (PI / 180)) else 0.
Proof. (* mixed_input and clip spell out Proofs/ShiftP.v's spec_sum and clip: the two statements are convertible *)
  exact (delta_flap_spec (PI / 180)).
Qed.
Print Assumptions C15_delta_flap_spec.

Theorem C15_window_and_saturation : forall left_side root tip sat mx s, 0 <= sat ->
  (in_surface root tip s = true <-> root <= s <= tip) /\
  - sat <= delta_flap (PI / 180) left_side root tip sat mx s <= sat /\
  (in_surface root tip s = false -> delta_flap (PI / 180) left_side root tip sat mx s = 0 /\
                                     forall cf, flap_fraction root tip cf s = 0).
Proof.
  split; [apply in_surface_iff|]. split; [apply delta_flap_bounded; assumption|].
  intros Hout. split.
  - rewrite delta_flap_spec by assumption. rewrite Hout. reflexivity.
  - unfold flap_fraction. rewrite Hout. reflexivity.
Qed.
Print Assumptions C15_window_and_saturation.

(* a control input given as a function of the span fraction (accepted like the functions of twist or sweep): the same mapping with the
   function's value at the control point - and, like every other form of input, zero outside the control surface *)
Corollary C15_function_input : forall left_side root tip sat symmetric factor (f : R -> R) s, 0 <= sat ->
  delta_flap (PI / 180) left_side root tip sat [(symmetric, factor, CFun f)] s =
    if in_surface root tip s
    then clip sat ((if (negb left_side || symmetric)%bool then 1 else -1) * factor * f s * (PI / 180))
    else 0.
Proof.
  intros. rewrite C15_delta_flap_spec by assumption. cbn [mixed_input input_at].
  destruct (in_surface root tip s); [|reflexivity]. f_equal. ring.
Qed.
Print Assumptions C15_function_input.

(* the flap-chord fraction inside the surface is the interpolated input (node values reproduced; constant = constant) *)
Theorem C15_flap_fraction_interpolated : forall root tip s,
  in_surface root tip s = true ->
  (forall c, flap_fraction root tip (CConst c) s = c) /\
  (forall tbl, flap_fraction root tip (CTable tbl) s = interp s tbl) /\
  (forall tbl y, incr tbl -> In (s, y) tbl -> flap_fraction root tip (CTable tbl) s = y).
Proof.
  intros root tip s Hin. unfold flap_fraction. rewrite Hin. repeat split.
  intros tbl y Hi Hy. apply interp_reproduces_nodes; assumption.
Qed.
Print Assumptions C15_flap_fraction_interpolated.

(* setting a control state replaces the previous one: the section deflections are a function of the *last* setting only,
   and controls it does not mention are stored as zero *)
Theorem C15_set_replaces : forall (names : list nat) (given : list (nat * R)) n,
  In n names ->
  In (n, match find (fun p => Nat.eqb (fst p) n) given with Some p => snd p | None => 0 end)
     (replace_state Nat.eqb names given).
Proof.
  intros names given n Hin. rewrite replace_state_map. exact (in_map _ _ _ Hin).
Qed.
Print Assumptions C15_set_replaces.

(* non-vacuity: a left antisymmetric aileron with mixing 1 and +5 deg input deflects -5 deg inside its span *)
Example C15_example : delta_flap (PI / 180) true 0.4 1 (PI / 2) [(false, 1, CConst 5)] 0.7 = - (5 * (PI / 180)).
Proof.
  pose proof PI_RGT_0 as Hpi. rewrite delta_flap_spec, (proj2 (in_surface_iff 0.4 1 0.7)) by lra.
  cbn [spec_sum input_at negb orb]. rewrite clip_inside by lra. ring.
Qed.
