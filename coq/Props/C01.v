(* C01 — the returned circulation solves the general numerical lifting-line equation, or an error is raised.
   Statements only.  Models: Model/Kernel.v, Model/Residual.v, Model/ErrPolicy.v. *)
From Coq Require Import Reals Lra List Lia Bool.
From Coquelicot Require Import Coquelicot.
From MuxV Require Import Base.Num Base.Vec3 Base.RInst Model.Kernel Model.Residual Model.ErrPolicy Model.Helpers Model.Flow Proofs.VecP Proofs.KernelP Proofs.ResidualP Proofs.AssembleP Proofs.BiotSavartP.
Import ListNotations.
Local Open Scope R_scope.

(* ---- the equation, written out for the documented default options ---- *)
Section Equation.
  Variables (atan2 : R -> R -> R) (c : cpt R) (sc : section R) (Vr : list (v3 R)) (g : list R) (gi : R).

  (* local velocity: freestream + rigid-body rotation + sum over all horseshoe vortices of influence * strength *)
  Definition spec_v : v3 R :=
    vadd (vadd (cvinf c) (cvrot c))
         (fold_right (fun p acc => vadd (vscale (snd p) (fst p)) acc) vzero (combine Vr g)).
  Definition spec_v_in_plane : v3 R := vsub spec_v (vscale (vdot (cus c) spec_v) (cus c)).
  Definition spec_alpha : R := atan2 (vdot spec_v (cun c)) (vdot spec_v (cua c)).
  Definition spec_Vip : R := sqrt (vdot spec_v_in_plane spec_v_in_plane).
  Definition spec_Re : R := spec_Vip * ccbar c / cnu c.
  Definition spec_M : R := spec_Vip / csos c.
  (* swept-section lift coefficient: section CL corrected with the local lift slope (scene.py 797) *)
  Definition spec_CL : R :=
    sCL sc spec_alpha spec_Re spec_M
    + sCLa sc spec_alpha spec_Re spec_M * (saL0 sc spec_Re spec_M - saL0 sc spec_Re spec_M * ccsi c).
  (* Kutta-Joukowski lift of the bound vortex (per rho/2) minus the section lift (per rho/2) *)
  Definition spec_residual : R :=
    2 * sqrt (vdot (vcross spec_v (cdl c)) (vcross spec_v (cdl c))) * gi
    - vdot spec_v_in_plane spec_v_in_plane * spec_CL * cdS c.

  Theorem C01_residual_is_GNLL :
    residual_at atan2 (mk_opts true true true false) c sc Vr g gi = spec_residual.
  Proof.
    unfold residual_at, v_local. rewrite induced_pairs. reflexivity.
  Qed.
End Equation.
Print Assumptions C01_residual_is_GNLL.

(* ---- the iteration: normal exit means converged residual; the cap means NotConverged ---- *)
Section Iteration.
  Variables (atan2 : R -> R -> R) (O : opts) (solve : list (list R) -> list R -> list R).
  Variables (conv relax : R) (max_iter : nat).
  Variables (cs : list (cpt R)) (Ss : list (section R)) (Vm : list (list (v3 R))).

  (* whenever the nonlinear solver returns a circulation, the residual norm measured immediately before the last
     (relaxed) Newton update was within the configured tolerance, and at most max_iter updates were made *)
  Theorem C01_newton_exit : forall g0 g' k,
    solve_nonlinear atan2 O solve conv relax max_iter cs Ss Vm g0 = Converged g' k ->
    (100 <= conv /\ g' = g0) \/
    (exists g, norm2 (residual atan2 O cs Ss Vm g) <= conv /\
               g' = newton_update atan2 O solve relax cs Ss Vm g /\ (k < max_iter)%nat).
  Proof.
    intros g0 g' k H. apply newton_result in H as [(H1 & H2 & _)|(g & H1 & H2 & _ & H4)]; [left | right; exists g]; auto.
  Qed.

  (* if the tolerance is not met within max_iter updates the outcome is NotConverged (an exception), never a result *)
  Theorem C01_newton_cap : forall g0 g' k, (0 < max_iter)%nat ->
    solve_nonlinear atan2 O solve conv relax max_iter cs Ss Vm g0 = NotConverged g' k -> k = max_iter.
  Proof. intros g0 g' k _. apply newton_cap. reflexivity. Qed.
End Iteration.
Print Assumptions C01_newton_exit.
Print Assumptions C01_newton_cap.

(* ---- the error policy ---- *)
Definition not_converged (s : solver_kind) (f : run_facts) : bool :=
  match s with
  | SNonlinear => negb (newton_ok f)
  | SScipy => negb (fsolve_ok f) && negb (newton_ok f)
  | _ => false
  end.

(* set_err_state prescribes: raise -> SolverNotConvergedError propagates and no loads are returned;
   warn -> one warning, loads returned; ignore -> loads returned silently; anything else -> RuntimeError *)
Theorem C01_policy_table : forall s g db f, n_aircraft f <> 0%nat -> integrate_db_error f = false ->
  not_converged s f = true ->
  solve_forces_outcome s g IRaise db f = RaisedNotConverged /\
  solve_forces_outcome s g IWarn db f = Loads 1 false /\
  solve_forces_outcome s g IIgnore db f = Loads 0 false /\
  solve_forces_outcome s g IBad db f = RaisedRuntimeError.
Proof.
  intros s g db f Hn Hdb Hnc. unfold solve_forces_outcome. rewrite (proj2 (Nat.eqb_neq _ _) Hn), Hdb.
  destruct s; try discriminate Hnc; cbn in Hnc |- *; destruct (fsolve_ok f), (newton_ok f); try discriminate Hnc; repeat split.
Qed.
Print Assumptions C01_policy_table.

(* under the default 'raise' state, loads are only ever returned from a solver run that reported convergence *)
Theorem C01_never_silent_under_raise : forall s g db f w ok,
  solve_forces_outcome s g IRaise db f = Loads w ok -> not_converged s f = false \/ s = SOther.
Proof.
  intros s g db f w ok H. destruct (not_converged s f) eqn:Hnc; [exfalso | left; reflexivity].
  unfold solve_forces_outcome in H. destruct (Nat.eqb (n_aircraft f) 0); [discriminate|].
  destruct s; try discriminate Hnc; cbn in Hnc, H; destruct (fsolve_ok f), (newton_ok f); discriminate.
Qed.
Print Assumptions C01_never_silent_under_raise.

(* non-vacuity: a concrete failing run under each instruction *)
Example C01_policy_example :
  let f := {| n_aircraft := 1; fsolve_ok := false; newton_ok := false; integrate_db_error := false |} in
  solve_forces_outcome SScipy GLinear IRaise IRaise f = RaisedNotConverged /\
  solve_forces_outcome SNonlinear GPrevious IWarn IRaise f = Loads 1 false.
Proof. split; reflexivity. Qed.

(* ---- what the residual is evaluated with: the air velocity seen at a point at body offset r from the CG is wind - v + R^T (r x w),
   the trailing vortices leave along the unit vector of that velocity at the joints and, when the sheet is constrained, have no
   component along the body z-axis (scene.py _calc_invariant_flow_properties; run against the live arrays after every solve path) ---- *)
Theorem C01_flow_at_points : forall (q : quat R) (v wind w r vj : v3 R),
  v_inf_and_rot q v wind w r = vadd (vsub wind v) (quat_inv_trans q (vcross r w)) /\
  (vnorm2 vj <> 0 -> vnorm2 (trailing_dir false q vj) = 1) /\
  (vnorm2 (body_z q) = 1 -> vdot (body_z q) (trailing_dir true q vj) = 0).
Proof.
  split; [apply v_inf_and_rot_eq|]. split; [apply trailing_is_unit | apply constrained_in_body_plane].
Qed.
Print Assumptions C01_flow_at_points.

(* ---- the influence of a straight vortex segment A -> B (bound segment, joint segments) that the code evaluates in closed form is the
   Biot-Savart line integral over the segment: with ra = PC - A, rb = PC - B, dl = (B - A) dt and rho(t) the vector from the point
   A + t (B - A) to the control point, each component of int_0^1 dl x rho / |rho|^3 equals that component of
   (|ra|+|rb|) (ra x rb) / (|ra||rb| (|ra||rb| + ra.rb)), whenever the control point is not on the line through A and B.
   The semi-infinite trailing filaments follow below.) ---- *)
Theorem C01_segment_is_biot_savart : forall ra rb : v3 R, vnorm2 (vcross ra rb) <> 0 ->
  let integrand := fun t => vscale (/ (vnorm2 (rho ra rb t) * sqrt (vnorm2 (rho ra rb t)))) (vcross (vsub ra rb) (rho ra rb t)) in
  is_RInt (fun t => vx (integrand t)) 0 1 (vx (seg_kernel ra rb)) /\
  is_RInt (fun t => vy (integrand t)) 0 1 (vy (seg_kernel ra rb)) /\
  is_RInt (fun t => vz (integrand t)) 0 1 (vz (seg_kernel ra rb)).
Proof.
  intros ra rb H integrand. split; [|split]; exact (seg_kernel_is_biot_savart ra rb H _ (fun _ _ => eq_refl)).
Qed.
Print Assumptions C01_segment_is_biot_savart.

(* ---- a trailing filament leaves its joint along the unit vector u and is followed to infinity: for every length T the truncated
   Biot-Savart integral int_0^T (u x rho) / |rho|^3 dt exists, and its limit for T -> infinity is, component by component, the closed form
   (u x r) / (|r| (|r| - u.r)) that the code evaluates (scene.py 621-639), whenever the control point is not on the line of the filament;
   [trail_kernel] is that closed form whenever it is kept, i.e. above the cut-off ---- *)
Theorem C01_trailing_is_biot_savart : forall u r : v3 R, vnorm2 u = 1 -> 0 < vnorm2 r - vdot u r * vdot u r ->
  let integrand := fun t => vscale (/ (vnorm2 (rho_t u r t) * sqrt (vnorm2 (rho_t u r t)))) (vcross u (rho_t u r t)) in
  let closed := vdivs (vcross u r) (vnorm r * (vnorm r - vdot u r)) in
  forall proj, (proj = vx \/ proj = vy \/ proj = vz) ->
  exists I : R -> R, (forall T, is_RInt (fun t => proj (integrand t)) 0 T (I T)) /\ is_lim I p_infty (proj closed).
Proof.
  intros u r Hu Hnc integrand closed proj Hp. eexists.
  apply (trail_kernel_is_biot_savart u r Hu Hnc proj). destruct Hp as [-> | [-> | ->]]; reflexivity.
Qed.
Print Assumptions C01_trailing_is_biot_savart.

Theorem C01_trail_kernel_closed_form : forall (cutoff : R) (u r : v3 R), cutoff < trail_denom u r ->
  trail_kernel (fun x => x) cutoff u r = vdivs (vcross u r) (vnorm r * (vnorm r - vdot u r)).
Proof.
  exact trail_kernel_kept.
Qed.
Print Assumptions C01_trail_kernel_closed_form.

(* the error state is that of the LAST set_err_state call; whatever that call leaves out is "raise" again, whatever earlier calls said
   (docstring: "All will default to 'raise' if not specified") - so an earlier 'ignore' can never silence a later unconverged solve *)
Theorem C01_err_state_last_call_wins : forall calls c,
  err_state_after (calls ++ [c]) = set_err_state c /\ err_state_after [] = (IRaise, IRaise) /\
  (fst c = None -> fst (err_state_after (calls ++ [c])) = IRaise).
Proof.
  intros calls c. unfold err_state_after. rewrite fold_left_app. cbn [fold_left]. repeat split.
  intro H. unfold set_err_state. rewrite H. reflexivity.
Qed.
Print Assumptions C01_err_state_last_call_wins.
