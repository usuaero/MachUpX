(* C12 — generated lifting-line geometry reproduces the described wing: span-wise grid, section chords and areas, reference
   defaults, quarter-chord curve, section vectors, grouping into wings, order of attachment.  (The quarter-chord curve itself is
   checked against an independent integration of the documented curve by the harness; see DESIGN.) *)
From Coq Require Import Reals Lra List Bool Arith Lia ZArith.
From MuxV Require Import Base.Num Base.RInst Model.Grid Proofs.GridP.
Import ListNotations.
Local Open Scope R_scope.

(* cosine clustering inside one section [d0,d1] holding n >= 1 control points: node k at d0 + (1-cos(k pi/n))/2 (d1-d0);
   nodes run strictly monotonically from d0 to d1 with exactly one control point strictly between consecutive nodes *)
Definition node_at (d0 d1 : R) (n k : nat) : R := d0 + node_frac cos PI (1/2) n k * (d1 - d0).
Definition cp_at (d0 d1 : R) (n k : nat) : R := d0 + cp_frac cos PI (1/2) n k * (d1 - d0).
Theorem C12_cosine_section : forall d0 d1 n, d0 < d1 -> (1 <= n)%nat ->
  node_at d0 d1 n 0 = d0 /\ node_at d0 d1 n n = d1 /\
  (forall k, (k < n)%nat -> node_at d0 d1 n k < cp_at d0 d1 n k < node_at d0 d1 n (S k)).
Proof.
  intros d0 d1 n Hd Hn. unfold node_at, cp_at. destruct (section_ends n Hn) as [E0 E1].
  unfold nodeF in *. rewrite E0, E1. split; [ring|split; [ring|]].
  intros k Hk. destruct (section_interleaved n k Hn Hk) as [A B]. unfold nodeF, cpF in *.
  split; apply Rplus_lt_compat_l, Rmult_lt_compat_r; assumption || lra.
Qed.
Print Assumptions C12_cosine_section.

(* the lists the code builds for a section are exactly these nodes (k = 1..n) and control points (k = 0..n-1) *)
Theorem C12_section_lists : forall d0 d1 n,
  sec_nodes cos PI (1/2) d0 d1 n = map (node_at d0 d1 n) (seq 1 n) /\
  sec_cps cos PI (1/2) d0 d1 n = map (cp_at d0 d1 n) (seq 0 n).
Proof. split; reflexivity. Qed.
Print Assumptions C12_section_lists.

(* linear spacing: nodes k/N, control points at the mid-points (2k+1)/(2N) *)
Theorem C12_linear_grid : forall n k, (1 <= n)%nat ->
  ((k <= n)%nat -> nth k (fst (linear_grid (T:=R) n)) 0 = INR k / INR n) /\
  ((k < n)%nat -> nth k (snd (linear_grid (T:=R) n)) 0 = (2 * INR k + 1) / (2 * INR n)).
Proof. intros n k Hn. rewrite (linear_grid_R n Hn). cbn [fst snd]. split; intros Hk; rewrite nth_map_seq by lia; reflexivity. Qed.
Print Assumptions C12_linear_grid.

(* left segments carry the mirror image: the same span fractions in reversed order (left to right along the lifting line) *)
Theorem C12_left_is_reversed_right : forall (g : list R * list R),
  for_side true g = (rev (fst (for_side false g)), rev (snd (for_side false g))).
Proof. reflexivity. Qed.
Print Assumptions C12_left_is_reversed_right.

(* the N control points are all allocated: after the correction (taken from the root section, or from the longest sections when the
   root section is too short) the section counts - rounded lengths, hence non-negative - sum to N *)
Theorem C12_counts : forall (Ncp : Z) (rounded : list Z), rounded <> [] -> Forall (fun r => 0 <= r)%Z rounded ->
  fold_left Z.add (alloc Ncp rounded) 0%Z = Ncp.
Proof. intros Ncp rounded Hne Hnn. apply alloc_sum; [exact Hne|]. destruct Hnn; [congruence|assumption]. Qed.
Print Assumptions C12_counts.

(* section chord = mean of its two node chords; section areas sum to semispan x the trapezoid rule of the node chords
   (= semispan x integral of the chord whenever the chord is affine between nodes) *)
Theorem C12_area_sum : forall b spans chords, length spans = length chords ->
  fold_right Rplus 0 (areas b spans (mean_chords chords)) = b * trapezoid spans chords.
Proof. intros. apply area_sum. Qed.
Print Assumptions C12_area_sum.

(* reference defaults: area = sum of the main segments' areas, lateral length = 2 x semispan of the main wing (right or one-sided
   segments), longitudinal length = area / lateral length; explicit values win *)
Theorem C12_reference_defaults : forall (b c : R) (a_r a_l : R),
  ref_defaults None None None [(true, false, b, a_l); (true, true, b, a_r); (false, true, c, 5)] = (a_l + a_r, (a_l + a_r) / (2 * b), 2 * b) /\
  (forall S lat lon segs, ref_defaults (Some S) (Some lat) (Some lon) segs = (S, lon, lat)).
Proof.
  split; [|reflexivity]. unfold ref_defaults. cbn [fold_left andb]. rnum.
  f_equal; [f_equal|]; try ring. f_equal; ring.
Qed.
Print Assumptions C12_reference_defaults.

From Coquelicot Require Import Coquelicot.
From MuxV Require Import Base.Vec3 Model.QCurve Proofs.QCurveP.
Local Open Scope R_scope.
(* The lifting line lies on the documented curve.  [qc_code] is wing_segment.py's piece-wise accumulation between the discontinuities
   with scipy's quad read as the Riemann integral of the code's integrands (per-side signs of sweep and dihedral included);
   [curve_spec] is the documented curve in terms of the description's own angles Lambda(s), Gamma(s):
       x(s) = x0 - b Int_0^s tan Lambda,   y(s) = y0 +- b Int_0^s cos Gamma,   z(s) = z0 - b Int_0^s sin Gamma.
   The integrability hypotheses are what the proof needs of the description (they hold for every constant, piece-wise linear or
   step table; the constant case is discharged below). *)
Theorem C12_quarter_chord_curve : forall (dr : R) (sw di : dist R),
  (forall a b, ex_RInt (fun s => tan (angle_val dr sw s)) a b) ->
  (forall a b, ex_RInt (fun s => cos (angle_val dr di s)) a b) ->
  (forall a b, ex_RInt (fun s => sin (angle_val dr di s)) a b) ->
  forall left_side root b rest s, nondecr 0 rest -> 0 <= s <= last rest 0 ->
  qc_code dr sw di left_side root b (0 :: rest) s = curve_spec dr sw di left_side root b s.
Proof. exact qc_standard_is_curve. Qed.
Print Assumptions C12_quarter_chord_curve.

(* the list of discontinuities the code builds is sorted, whatever the tables *)
Theorem C12_discontinuities_sorted : forall di sw : dist R, sortedR (mk_discont di sw).
Proof. exact mk_discont_sorted. Qed.
Print Assumptions C12_discontinuities_sorted.

(* it starts at the root, and advances with dx/ds = -b tan(sweep), the span direction rotated by the dihedral *)
Theorem C12_curve_start_and_tangent : forall (dr : R) (sw di : dist R),
  (forall a b, ex_RInt (fun s => tan (angle_val dr sw s)) a b) ->
  (forall a b, ex_RInt (fun s => cos (angle_val dr di s)) a b) ->
  (forall a b, ex_RInt (fun s => sin (angle_val dr di s)) a b) ->
  forall left_side root b,
  curve_spec dr sw di left_side root b 0 = root /\
  forall s, continuous (fun t => tan (angle_val dr sw t)) s -> continuous (fun t => cos (angle_val dr di t)) s ->
            continuous (fun t => sin (angle_val dr di t)) s ->
    is_derive (fun u => vx (curve_spec dr sw di left_side root b u)) s (- b * tan (angle_val dr sw s)) /\
    is_derive (fun u => vy (curve_spec dr sw di left_side root b u)) s
              (if left_side then - b * cos (angle_val dr di s) else b * cos (angle_val dr di s)) /\
    is_derive (fun u => vz (curve_spec dr sw di left_side root b u)) s (- b * sin (angle_val dr di s)).
Proof.
  intros dr sw di HT HC HS left_side root b. split; [apply curve_starts_at_root|].
  intros s CT CC CS. exact (curve_tangent dr sw di HT HC HS left_side root b s CT CC CS).
Qed.
Print Assumptions C12_curve_start_and_tangent.

(* left segments are the mirror image of right ones: the curve, the connection offsets and the quarter-chord-points branch *)
Theorem C12_curve_mirror : forall dr sw di root b s,
  curve_spec dr sw di true (mirror_y root) b s = mirror_y (curve_spec dr sw di false root b s).
Proof. exact curve_mirror. Qed.
Print Assumptions C12_curve_mirror.
Theorem C12_connection : forall dx dy dz yoff,
  delta_origin true dx (- dy) dz yoff = mirror_y (delta_origin false dx dy dz yoff) /\
  forall left_side origin, attach_at_root left_side (root_loc origin (delta_origin left_side dx dy dz yoff)) yoff = vadd origin (V3 dx dy dz).
Proof. split; [apply delta_origin_mirror | intros; apply attach_at_root_removes_offset]. Qed.
Print Assumptions C12_connection.

(* constant sweep and dihedral, no hypothesis left: the code's list of discontinuities is [0; 1] and the curve is the straight line *)
Theorem C12_constant_angles_straight_line : forall dr left_side root b lam gam s, 0 <= s <= 1 ->
  qc_code dr (DConst lam) (DConst gam) left_side root b (mk_discont (DConst lam) (DConst gam)) s =
  V3 (vx root - s * b * tan (lam * dr))
     (if left_side then vy root - s * b * cos (gam * dr) else vy root + s * b * cos (gam * dr))
     (vz root - s * b * sin (gam * dr)).
Proof. intros. rewrite <- curve_spec_const. apply qc_const_is_curve. assumption. Qed.
Print Assumptions C12_constant_angles_straight_line.

(* quarter-chord points: span fractions increase strictly when consecutive points differ in the y-z plane, the curve then passes
   through every given point (y mirrored on the left) *)
Theorem C12_quarter_chord_points : forall pts, pts <> [] -> distinct_yz 0 0 pts ->
  incr_spans (qc_table pts) /\
  forall left_side root t p, In (t, p) (qc_table pts) ->
    qc_points left_side root (qc_table pts) t = V3 (vx root + vx p) (if left_side then vy root + - vy p else vy root + vy p) (vz root + vz p).
Proof.
  intros pts Hne Hd. pose proof (qc_table_incr pts Hne Hd) as Hi. split; [exact Hi|].
  intros left_side root t p Hin. apply qc_points_through; assumption.
Qed.
Print Assumptions C12_quarter_chord_points.

(* "shifted along the local chord by ll_offset": the displacement has length |offset| x chord, lies along the unswept chord line
   (orthogonal to the unswept span and normal directions, which with it form an orthonormal triad); zero offset leaves the point *)
Theorem C12_ll_offset : forall qc off chord tw di,
  (let d := vsub (ll_loc qc off chord (unswept_axial cos sin tw di)) qc in
   vdot d d = (off * chord) * (off * chord) /\ vdot d (unswept_span cos sin di) = 0 /\ vdot d (unswept_normal cos sin tw di) = 0) /\
  ll_loc qc 0 chord (unswept_axial cos sin tw di) = qc /\
  (let a := unswept_axial cos sin tw di in let n := unswept_normal cos sin tw di in let s := unswept_span cos sin di in
   vdot a a = 1 /\ vdot n n = 1 /\ vdot s s = 1 /\ vdot a n = 0 /\ vdot a s = 0 /\ vdot n s = 0).
Proof. split; [apply ll_offset_distance | split; [apply ll_offset_zero | apply unswept_triad]]. Qed.
Print Assumptions C12_ll_offset.

(* the hypotheses are satisfiable: a two-piece description with a discontinuity list 0 < 0.4 < 1 *)
Example C12_curve_nonvacuous : nondecr 0 [0.4; 1] /\ 0 <= 0.7 <= last [0.4; 1] 0 /\ distinct_yz 0 0 [V3 0 1 0; V3 (-0.2) 2 (-0.3)].
Proof. cbn. repeat split; left; lra. Qed.

(* Effective lifting lines and vortex joints (general corrections, airplane.py 557-671, Model/Reid.v). *)
From MuxV Require Import Model.Reid Proofs.ReidP.
(* without the corrections the nodes are the generated ones and there are no joints; with them every effective node is a convex
   combination (weight in (0,1], a Gaussian of the span-wise distance) of the straight line through the control point and the actual
   node, and the line passes through the control point itself *)
Theorem C12_effective_line :
  (forall fexp (w : list (sec R)) i, sreid i = false -> reid_row fexp w i = (map sP0 w, map sP1 w, map sP0 w, map sP1 w)) /\
  (forall sigma PCi dPC PCsi P Ps, 0 <= sigma -> exists lam, 0 < lam <= 1 /\
     blend_node exp sigma PCi dPC PCsi P Ps = vadd (vscale lam (vadd PCi (vscale (Ps - PCsi) dPC))) (vscale (1 - lam) P)) /\
  (forall sigma PCi dPC PCsi P, blend_node exp sigma PCi dPC PCsi P PCsi = PCi).
Proof. split; [exact reid_off | split; [exact blend_node_convex | exact blend_node_at_cp]]. Qed.
Print Assumptions C12_effective_line.
(* the joint direction is a unit vector orthogonal to the (unit) tangent of the effective line, in the plane of tangent and chord line,
   on the chord line's side; the joint is chord x delta_joint long *)
Theorem C12_joints : forall (Tn ua : v3 R), vdot Tn Tn = 1 -> vdot ua ua = 1 -> Rabs (vdot Tn ua) < 1 ->
  (let u := joint_dir Tn ua in vdot u u = 1 /\ vdot u Tn = 0 /\ 0 < vdot u ua /\ exists c1 c2, u = vadd (vscale c1 ua) (vscale c2 Tn)) /\
  forall P chord dj, let J := joint_node P chord dj (joint_dir Tn ua) in vdot (vsub J P) (vsub J P) = (chord * dj) * (chord * dj).
Proof.
  intros Tn ua HT Hu Hk. pose proof (joint_dir_spec Tn ua HT Hu Hk) as H. split; [exact H|].
  intros P chord dj. apply joint_node_length. exact (proj1 H).
Qed.
Print Assumptions C12_joints.

(* the integrability hypotheses discharged (Proofs/InterpContP.v: np.interp over strictly increasing abscissae is a sum of ramps, hence
   continuous): for constant or piece-wise linear (strictly increasing table) sweep and dihedral, sweep never +-90 degrees, the generated
   curve is the documented one with no further assumption.  (Step tables, which repeat a node, stay under the hypothesis form above.) *)
From MuxV Require Import Proofs.InterpP Proofs.InterpContP.
Theorem C12_quarter_chord_curve_tables : forall dr sw di, wf_dist sw -> wf_dist di -> (forall s, cos (angle_val dr sw s) <> 0) ->
  forall left_side root b rest s, nondecr 0 rest -> 0 <= s <= last rest 0 ->
  qc_code dr sw di left_side root b (0 :: rest) s = curve_spec dr sw di left_side root b s.
Proof. exact qc_standard_is_curve_tables. Qed.
Print Assumptions C12_quarter_chord_curve_tables.
Example C12_tables_nonvacuous : wf_dist (DTab [(0, 2); (0.5, 4); (1, 10)]) /\ wf_dist (DConst 3).
Proof. repeat split; lra. Qed.

(* section dihedral of a curve given by quarter-chord points (Model/QCurve.v dihedral_points; Proofs/QPointsP.v): for every chord of the
   curve that is not degenerate in the y-z plane - outboard, straight up or down, back inboard - and on either side, the angle the code
   derives is one whose span direction, as the curve integrands and the unswept section vectors use it, is the direction of that chord;
   the angles of the two halves of a wing are mirror images.  numpy.arctan2 enters through its specification (atan2_spec), which the
   instance atan2R built from atan satisfies. *)
From MuxV Require Import Proofs.QPointsP.
Theorem C12_points_dihedral : forall atan2, atan2_spec atan2 -> forall left_side (p0 p1 : v3 R),
  let dy := vy p1 - vy p0 in
  let dz := vz p1 - vz p0 in
  dy <> 0 \/ dz <> 0 ->
  span_dir left_side (dihedral_points atan2 left_side p0 p1) = (dy / sqrt (dy * dy + dz * dz), dz / sqrt (dy * dy + dz * dz)).
Proof. exact dihedral_points_direction. Qed.
Print Assumptions C12_points_dihedral.
Theorem C12_points_dihedral_mirror : forall atan2, atan2_spec atan2 -> forall (p0 p1 : v3 R),
  vy p1 - vy p0 <> 0 \/ vz p1 - vz p0 <> 0 ->
  let dr := dihedral_points atan2 false p0 p1 in
  let dl := dihedral_points atan2 true (mirror_y p0) (mirror_y p1) in
  cos dl = cos dr /\ sin dl = - sin dr.
Proof. exact dihedral_points_mirror. Qed.
Print Assumptions C12_points_dihedral_mirror.
Example C12_points_dihedral_nonvacuous : atan2_spec atan2R /\ (vy (V3 0 0 (-2)) - vy (V3 0 0 0) <> 0 \/ vz (V3 0 0 (-2)) - vz (V3 0 0 0) <> 0).
Proof. split; [exact atan2R_spec | right; cbn; lra]. Qed.

(* ... and the section sweep derived from the same chord (fix 78b1e1c gave it the per-side sign of a sweep given as an angle): the
   x-advance of the curve per unit length in the y-z plane that the integrands compute from it - +tan on the left, -tan on the right -
   is the slope of the chord; the two halves carry opposite angles *)
Theorem C12_points_sweep : forall (left_side : bool) (p0 p1 : v3 R),
  let dy := vy p1 - vy p0 in
  let dz := vz p1 - vz p0 in
  (if left_side then tan (sweep_points atan (fun x => x * x) left_side p0 p1) else - tan (sweep_points atan (fun x => x * x) left_side p0 p1))
  = (vx p1 - vx p0) / sqrt (dy * dy + dz * dz).
Proof. exact sweep_points_direction. Qed.
Print Assumptions C12_points_sweep.
Theorem C12_points_sweep_mirror : forall (p0 p1 : v3 R),
  sweep_points atan (fun x => x * x) true (mirror_y p0) (mirror_y p1) = - sweep_points atan (fun x => x * x) false p0 p1.
Proof. exact sweep_points_mirror. Qed.
Print Assumptions C12_points_sweep_mirror.

(* the lifting line on Kuchemann's locus of aerodynamic centres (Model/Kuchemann.v, Proofs/KuchemannP.v): the offset depends on the
   sweep only through its magnitude - the two halves of a wing, whose internal sweep angles are opposite, carry the same offset station by
   station; stations mirrored about the middle of the semispan deviate from the mid value -(1 - 1/K)/4 by opposite amounts, and a station
   as far from the centre as from the tip takes it; the interpolation weight lies in (0, 1].  For any cos, tan and power function. *)
From MuxV Require Import Model.Kuchemann Proofs.KuchemannP.
Theorem C12_kuchemann_offset : forall fcos ftan fpow pi CLa RA sw b,
  (forall nodes, offsets fcos ftan fpow pi CLa RA (- sw) b nodes = offsets fcos ftan fpow pi CLa RA sw b nodes) /\
  (forall loc c, offset_at fcos ftan fpow pi CLa RA sw b loc c + offset_at fcos ftan fpow pi CLa RA sw b (1 - loc) c
                 = 2 * mid_value fcos fpow pi CLa RA sw) /\
  (forall loc c, c <> 0 -> loc * b = b - loc * b -> offset_at fcos ftan fpow pi CLa RA sw b loc c = mid_value fcos fpow pi CLa RA sw).
Proof.
  split; [intros; apply offsets_sweep_sign | split; [intros; apply offset_antisymmetric | intros loc c _ H; apply offset_mid, H]].
Qed.
Print Assumptions C12_kuchemann_offset.
Theorem C12_kuchemann_weight : forall pi sd x, 0 <= 2 * pi * sd * x -> 0 < lam pi sd x <= 1.
Proof. exact lam_bounds. Qed.
Print Assumptions C12_kuchemann_weight.

(* the swept section vectors a segment stores at its vortex nodes (Model/Swept.v, Proofs/ReidP.v): with the unit tangent of the lifting
   line as span vector and a unit unswept chord direction not parallel to it, the axial vector is a unit vector orthogonal to the span
   vector, in the plane of the two and on the chord direction's side, and the normal vector - their cross product - completes an
   orthonormal triad; the span vector is unit wherever the gradient of the line does not vanish *)
From MuxV Require Import Model.Swept.
Theorem C12_swept_section_vectors : forall (us ua0 : v3 R), vdot us us = 1 -> vdot ua0 ua0 = 1 -> Rabs (vdot us ua0) < 1 ->
  let ua := swept_axial us ua0 in
  let un := swept_normal ua us in
  vdot ua ua = 1 /\ vdot un un = 1 /\ vdot us us = 1 /\
  vdot ua us = 0 /\ vdot un ua = 0 /\ vdot un us = 0 /\
  0 < vdot ua ua0 /\ (exists c1 c2, ua = vadd (vscale c1 ua0) (vscale c2 us)).
Proof. exact swept_triad. Qed.
Print Assumptions C12_swept_section_vectors.
Theorem C12_span_vector_unit : forall g : v3 R, vdot g g <> 0 -> vdot (vdivs g (vnorm g)) (vdivs g (vnorm g)) = 1.
Proof. exact VecP.vnorm2_normalized. Qed.
Print Assumptions C12_span_vector_unit.
(* ... and at the control points, where the node vectors are interpolated linearly: the span vector normalised, the axial vector freed of
   its span component and normalised, and their cross product are an orthonormal triad again (fix 55e4504), whatever the interpolated
   vectors are as long as the first does not vanish and the second is not parallel to it *)
Theorem C12_control_point_triads : forall xs uas uss (s : R),
  let us0 := interp_vec xs uss s in
  let ua0 := interp_vec xs uas s in
  vdot us0 us0 <> 0 ->
  (let us := vdivs us0 (vnorm us0) in let ua1 := vsub ua0 (vscale (vdot ua0 us) us) in vdot ua1 ua1 <> 0) ->
  let '(ua, un, us) := cp_triad xs uas uss s in
  vdot ua ua = 1 /\ vdot un un = 1 /\ vdot us us = 1 /\ vdot ua us = 0 /\ vdot un ua = 0 /\ vdot un us = 0.
Proof. exact cp_triad_orthonormal. Qed.
Print Assumptions C12_control_point_triads.

(* grouping of the half-segments into wings (airplane.py _sort_segments_into_wings, Model/Wings.v): whenever the procedure finishes there
   are as many wings as half-segments that start a lifting line, the i-th wing begins with the i-th of them, every member is one of the
   aircraft's half-segments; a half-segment starts a lifting line iff it is not a left half lying against its right half and it either
   continues nothing or is two-sided on a one-sided parent; a finished wing is closed under one more pass of the while loop; a pass only
   takes half-segments that no wing had, that start no lifting line themselves and that are continuations. *)
From MuxV Require Import Model.Wings Proofs.WingsP.
Theorem C12_wing_grouping : forall segs ws, wings_of segs = Some ws ->
  length ws = length (originals segs) /\ heads ws (originals segs) /\ List.Forall (List.Forall (fun s => In s segs)) ws.
Proof.
  intros segs ws. unfold wings_of. destruct (build segs (originals segs) (originals segs) [] []) as [[ws' a]|] eqn:B; [|discriminate].
  intros [= <-]. destruct (wings_spec _ _ _ B) as (Hh & Hs & _). exact (conj (heads_length _ _ Hh) (conj Hh Hs)).
Qed.
Print Assumptions C12_wing_grouping.

Theorem C12_wing_originals : forall segs s, In s (originals segs) <->
  In s segs /\ skipped s = false /\ (cont s = false \/ (mir s = true /\ pmir s = false)).
Proof.
  intros segs s. unfold originals, is_orig. rewrite filter_In, andb_true_iff, orb_true_iff, andb_true_iff, !negb_true_iff. reflexivity.
Qed.
Print Assumptions C12_wing_originals.

Theorem C12_wing_closed : forall fuel origs o jm segs wing assigned w a,
  grow fuel origs o jm segs wing assigned = Some (w, a) -> pass origs o jm segs w a false = (w, a, false).
Proof. intros * G. eapply grow_spec, G. Qed.
Print Assumptions C12_wing_closed.

Theorem C12_wing_pass_takes_only_free_continuations : forall origs o jm l wing assigned added,
  let '(_, a, _) := pass origs o jm l wing assigned added in
  exists new, a = new ++ assigned /\
    (forall pre s post, new = pre ++ s :: post -> isin s (post ++ assigned) = false /\ isin s origs = false /\ cont s = true).
Proof.
  intros origs o jm l wing assigned added.
  destruct (pass_spec origs o jm l l (incl_refl l) wing assigned added) as (ext & new & -> & _ & _ & Hf). exists new. exact (conj eq_refl Hf).
Qed.
Print Assumptions C12_wing_pass_takes_only_free_continuations.

(* every member of every wing is recorded as assigned (wing_ID <> -1) ... *)
Theorem C12_wing_members_assigned : forall segs ws a,
  build segs (originals segs) (originals segs) [] [] = Some (ws, a) -> List.Forall (List.Forall (fun s => In s a)) ws.
Proof. intros segs ws a B. apply (wings_spec _ _ _ B). Qed.
Print Assumptions C12_wing_members_assigned.

(* ... hence what a pass takes for the wing being built has the (ID, side) of no member of the wings built before: the passes never list a
   half-segment in two wings *)
Theorem C12_wing_pass_disjoint_from_earlier_wings : forall origs o jm l wings wing assigned added,
  List.Forall (List.Forall (fun s => In s assigned)) wings ->
  let '(_, a, _) := pass origs o jm l wing assigned added in
  exists new, a = new ++ assigned /\
    forall s, In s new -> forall wg m, In wg wings -> In m wg -> keyeq s m = false.
Proof.
  intros origs o jm l wings wing assigned added Hm.
  destruct (pass_spec origs o jm l l (incl_refl l) wing assigned added) as (ext & new & -> & _ & _ & Hf). exists new. split; [reflexivity|].
  intros s Hs wg m Hwg Hmw. apply in_split in Hs. destruct Hs as (pre & post & ->).
  apply (isin_false _ _ (proj1 (Hf pre s post eq_refl))), in_or_app. right.
  rewrite Forall_forall in Hm. specialize (Hm wg Hwg). rewrite Forall_forall in Hm. exact (Hm m Hmw).
Qed.
Print Assumptions C12_wing_pass_disjoint_from_earlier_wings.

(* non-vacuity: a two-sided wing with outer panels and a one-sided fin carrying a two-sided T-tail give three wings (Proofs/WingsP.v) *)
Definition C12_wing_example := wings_example.
Check C12_wing_example.

(* order in which the segments of the "wings" dictionary are attached (airplane.py _load_wing_segments, Model/LoadOrder.v): the procedure
   only permutes the segments; when its second loop stops because nothing moves, no segment stands in front of the segment it connects
   to - every segment finds its parent attached -; an order in which that already holds is left as it is. *)
From MuxV Require Import Model.LoadOrder Proofs.LoadOrderP.
From Coq Require Import Permutation.
Theorem C12_load_order_permutes : forall input, Permutation input (load_order input).
Proof. intros input. exact (perm_trans (first_order_perm input) (fixup_perm _ _)). Qed.
Print Assumptions C12_load_order_permutes.

Theorem C12_load_order_parents_first : forall l, settled l = true ->
  forall pre x post, l = pre ++ x :: post -> forall y, In y post -> sID y <> spar x.
Proof. intros l Hs pre x post ->. exact (settled_spec pre x post Hs). Qed.
Print Assumptions C12_load_order_parents_first.

Theorem C12_load_order_keeps_settled_orders : forall fuel l, settled l = true -> fixup fuel l = l.
Proof. unfold settled. intros [|f] l; cbn [fixup]; [reflexivity|]. destruct (fix_step l); [discriminate|reflexivity]. Qed.
Print Assumptions C12_load_order_keeps_settled_orders.

Definition C12_load_order_example := load_order_example.
Check C12_load_order_example.
