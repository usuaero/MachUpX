(* C09 — reported derivatives are the documented central differences of the loads.  Statements only. *)
From Coq Require Import Reals Lra List Bool.
From MuxV Require Import Base.Num Base.Vec3 Base.RInst Model.Helpers Model.AeroState Model.Analyses
  Proofs.HelpersP Proofs.AnalysesP Proofs.TrigP.
Import ListNotations.
Local Open Scope R_scope.

(* central difference of two result tables, entry by entry *)
Fixpoint central (h : R) (fwd bwd : list R) : list R :=
  match fwd, bwd with a :: f, b :: g => (a - b) / (2 * h) :: central h f g | _, _ => [] end.

Lemma map2_central (f : R -> R -> R) h fwd bwd : (forall a b, f a b = (a - b) / (2 * h)) -> map2 f fwd bwd = central h fwd bwd.
Proof.
  intro Hf. revert bwd; induction fwd as [|a fwd IH]; intros [|b bwd]; try reflexivity.
  cbn [map2 central]. rewrite Hf, IH. reflexivity.
Qed.
Lemma cdiff_central k h fwd bwd : k = 1 / (2 * h) -> cdiff k fwd bwd = central h fwd bwd.
Proof. intros ->. apply map2_central. unfold Rdiv. rewrite Rmult_1_l. reflexivity. Qed.

Section C09.
  Variables (fcos fsin ftan fatan fasin : R -> R) (fatan2 : R -> R -> R) (r2d : R).
  Variable W : v3 R.
  Variable F : ast R -> list R.
  Variable okA : R -> R -> R -> Prop.
  Let d2r := PI / 180.
  Hypothesis HA : forall a b V, okA a b V -> enc fasin fatan2 r2d (dec fcos fsin ftan fatan d2r a b V) = (a, b, V).
  Notation aero s := (get_ae fasin fatan2 r2d W s).
  Definition others_fixed (s s' : ast R) : Prop := s_w s' = s_w s /\ s_p s' = s_p s /\ s_q s' = s_q s /\ s_c s' = s_c s.

  (* stability derivatives: every entry is the central difference, per radian, of the corresponding solve_forces total between
     two states that differ from the base state only in alpha (resp. beta) by +-dtheta degrees, measured relative to the wind *)
  Theorem C09_stability_table : forall s dth, qn2 (s_q s) = 1 ->
    let '(a0, b0, V0) := enc fasin fatan2 r2d (quat_trans (s_q s) (vsub (s_v s) W)) in
    okA (a0 + dth) b0 V0 -> okA (a0 - dth) b0 V0 -> okA a0 (b0 + dth) V0 -> okA a0 (b0 - dth) V0 ->
    exists sa_p sa_m sb_p sb_m,
      aero sa_p = (a0 + dth, b0, V0) /\ aero sa_m = (a0 - dth, b0, V0) /\
      aero sb_p = (a0, b0 + dth, V0) /\ aero sb_m = (a0, b0 - dth, V0) /\
      others_fixed s sa_p /\ others_fixed s sa_m /\ others_fixed s sb_p /\ others_fixed s sb_m /\
      fst (stability fcos fsin ftan fatan fasin fatan2 d2r r2d W F s dth) =
        (central (dth * (PI / 180)) (F sa_p) (F sa_m), central (dth * (PI / 180)) (F sb_p) (F sb_m)).
  Proof.
    intros s dth Hq. destruct (enc fasin fatan2 r2d (quat_trans (s_q s) (vsub (s_v s) W))) as [[a0 b0] V0] eqn:E.
    pose (at_ae := with_ae fcos fsin ftan fatan d2r W s).
    exists (at_ae (a0 + dth) b0 V0), (at_ae (a0 - dth) b0 V0), (at_ae a0 (b0 + dth) V0), (at_ae a0 (b0 - dth) V0). subst at_ae.
    rewrite !get_with_ae with (okA := okA) by assumption.
    rewrite stability_eq with (okA := okA) (a0 := a0) (b0 := b0) (V0 := V0) by assumption.
    unfold others_fixed. rewrite !(cdiff_central _ (dth * (PI / 180))) by reflexivity. repeat split.
  Qed.

  (* damping derivatives: central difference in the body rates along the three perturbation axes, normalised by 2V/b, 2V/c, 2V/b
     with V the airspeed relative to the wind; for rates given in stability axes the perturbation axes are the stability axes *)
  Theorem C09_damping_table : forall s dw pp qq rr lat lon,
    let '(_, _, V0) := aero s in
    fst (damping fasin fatan2 r2d W F s dw pp qq rr lat lon) =
      (map (fun x => x * (2 * V0 / lat)) (central dw (F (set_w s (vadd (s_w s) pp))) (F (set_w s (vsub (s_w s) pp)))),
       map (fun x => x * (2 * V0 / lon)) (central dw (F (set_w s (vadd (s_w s) qq))) (F (set_w s (vsub (s_w s) qq)))),
       map (fun x => x * (2 * V0 / lat)) (central dw (F (set_w s (vadd (s_w s) rr))) (F (set_w s (vsub (s_w s) rr))))).
  Proof.
    intros. unfold damping. destruct (Analyses.get_ae _ _ _ _ _) as [[a b] V0]. cbn [fst].
    rewrite !(cdiff_central _ dw) by reflexivity. reflexivity.
  Qed.
  Theorem C09_stability_axes_perturbation : forall a p q r,
    quat_inv_trans (quat_conj (euler_to_quat cos sin 0 a 0)) (V3 p q r) = V3 (cos a * p - sin a * r) q (sin a * p + cos a * r).
  Proof. exact stab_rates_rotation. Qed.

  (* control derivatives: central difference per radian in one control input, all other inputs and the state held fixed *)
  Theorem C09_control_table : forall s i dth,
    fst (control_deriv d2r F s i dth) =
      central (dth * (PI / 180)) (F (set_c s (set_nth (s_c s) i (nth i (s_c s) 0 + dth))))
                                 (F (set_c s (set_nth (s_c s) i (nth i (s_c s) 0 - dth)))).
  Proof. intros. apply map2_central. reflexivity. Qed.
End C09.
Print Assumptions C09_stability_table.
Print Assumptions C09_damping_table.
Print Assumptions C09_stability_axes_perturbation.
Print Assumptions C09_control_table.

(* ---- with the real trigonometric functions and NumPy's atan2 the encoding hypothesis is a theorem (Proofs/TrigP.v): the stability
   table is the documented central difference for every state whose perturbed angles stay inside (-90, 90) degrees ---- *)
Theorem C09_stability_table_real : forall W F s dth, qn2 (s_q s) = 1 ->
  let '(a0, b0, V0) := enc asin Ratan2 r2d (quat_trans (s_q s) (vsub (s_v s) W)) in
  okA_real (a0 + dth) b0 V0 -> okA_real (a0 - dth) b0 V0 -> okA_real a0 (b0 + dth) V0 -> okA_real a0 (b0 - dth) V0 ->
  exists sa_p sa_m sb_p sb_m,
    get_ae asin Ratan2 r2d W sa_p = (a0 + dth, b0, V0) /\ get_ae asin Ratan2 r2d W sa_m = (a0 - dth, b0, V0) /\
    get_ae asin Ratan2 r2d W sb_p = (a0, b0 + dth, V0) /\ get_ae asin Ratan2 r2d W sb_m = (a0, b0 - dth, V0) /\
    others_fixed s sa_p /\ others_fixed s sa_m /\ others_fixed s sb_p /\ others_fixed s sb_m /\
    fst (stability cos sin tan atan asin Ratan2 (PI / 180) r2d W F s dth) =
      (central (dth * (PI / 180)) (F sa_p) (F sa_m), central (dth * (PI / 180)) (F sb_p) (F sb_m)).
Proof. intros W F. exact (C09_stability_table cos sin tan atan asin Ratan2 r2d W F okA_real HA_real). Qed.
Print Assumptions C09_stability_table_real.

(* "control input per radian ... with everything else held fixed", when the control is set as a span-wise table of deflections (documented:
   float or array): the step is added to the deflections and to nothing else (Model/Controls.v shift_input, Proofs/ShiftP.v; fix 52ecd5c) -
   every section inside the control surface sees its input moved by exactly the step, the span column is unchanged so the surface's
   end-point test accepts the perturbed table exactly when it accepts the table; adding the step to both columns, as the pinned snapshot
   did, makes that test reject every accepted table for every non-zero step *)
From MuxV Require Import Model.Controls Proofs.ShiftP.
Theorem C09_control_step_on_input : forall (c : cinput R) d root tip s,
  (match c with CConst _ => True | CTable tbl => tbl <> [] | CFun _ => False end) ->
  input_at (shift_input c d) true s = input_at c true s + d /\
  table_ends_ok root tip (shift_input c d) = table_ends_ok root tip c.
Proof. intros c d root tip s H. split; [exact (input_at_shift c d s H) | exact (shift_keeps_ends c d root tip)]. Qed.
Print Assumptions C09_control_step_on_input.
Theorem C09_step_on_both_columns_refuted : forall d root tip tbl, d <> 0 ->
  table_ends_ok root tip (CTable tbl) = true -> table_ends_ok root tip (CTable (shift_both d tbl)) = false.
Proof. exact shift_both_rejected. Qed.
Print Assumptions C09_step_on_both_columns_refuted.
Example C09_control_step_nonvacuous : table_ends_ok 0.3 0.8 (CTable [(0.3, 2); (0.8, 4)]) = true /\ [(0.3, 2); (0.8, 4)] <> @nil (R * R).
Proof. split; [|discriminate]. cbn [table_ends_ok last fst]. apply andb_true_intro; split; apply Reqb_true; reflexivity. Qed.

(* state derivatives ("body-fixed velocity, Earth position, body rates and attitude"): every row of the table is the central difference,
   per unit of the step, of the loads in two states that differ from the current one in that single variable - a step along one body axis
   of the velocity (the Earth-fixed velocity moves by that step turned to the Earth frame), one Earth-fixed coordinate of the position, one
   body rate, or a small rotation about one body axis with the Earth-fixed velocity, position and rates held (Model/Analyses.v sd_row,
   sd_row_q; Proofs/AnalysesP.v) *)
Theorem C09_state_table : forall (F : ast R -> list R) (s : ast R) i d, qn2 (s_q s) = 1 -> d <> 0 ->
  sd_row F s SVel i d =
    central d (F (mk_ast (vadd (s_v s) (quat_inv_trans (s_q s) (vbump (V3 0 0 0) i d))) (s_w s) (s_p s) (s_q s) (s_c s)))
              (F (mk_ast (vadd (s_v s) (quat_inv_trans (s_q s) (vbump (V3 0 0 0) i (- d)))) (s_w s) (s_p s) (s_q s) (s_c s))) /\
  sd_row F s SPos i d =
    central d (F (mk_ast (s_v s) (s_w s) (vbump (s_p s) i d) (s_q s) (s_c s))) (F (mk_ast (s_v s) (s_w s) (vbump (s_p s) i (- d)) (s_q s) (s_c s))) /\
  sd_row F s SRate i d =
    central d (F (mk_ast (s_v s) (vbump (s_w s) i d) (s_p s) (s_q s) (s_c s))) (F (mk_ast (s_v s) (vbump (s_w s) i (- d)) (s_p s) (s_q s) (s_c s))) /\
  sd_row_q F s i d =
    central d (F (mk_ast (s_v s) (s_w s) (s_p s) (quat_mult (s_q s) (dq_of i d)) (s_c s)))
              (F (mk_ast (s_v s) (s_w s) (s_p s) (quat_mult (s_q s) (quat_conj (dq_of i d))) (s_c s))).
Proof.
  intros F s i d Hq Hd. rewrite !sd_row_eq. unfold sd_row_q.
  rewrite !sd_vel, !sd_pos, !sd_rate, !sd_quat by exact Hq.
  rewrite !(cdiff_central _ d) by (unfold Rdiv; rewrite Rinv_mult; apply Rmult_assoc). repeat split.
Qed.
Print Assumptions C09_state_table.
(* the attitude of both perturbed states is a unit quaternion again *)
Theorem C09_state_table_attitudes : forall (s : ast R) i e b, qn2 (s_q s) = 1 -> qn2 (s_q (sd_state_q s i e b)) = 1.
Proof. intros s i e b H. apply sd_quat_unit. exact H. Qed.
Print Assumptions C09_state_table_attitudes.
