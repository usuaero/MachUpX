(* C14 — the converged solution is independent of the solver path.  Statements only.
   Proved: what a converged Newton iteration converges TO does not depend on relaxation or starting vector (its fixed points are
   the zeros of the residual), and the linear solver returns the solution of its system.  NOT proved: uniqueness of the zero of
   the nonlinear residual and the quadratic approach of the linear to the nonlinear solution (both exercised by the sweep). *)
From Coq Require Import Reals Lra List Bool.
From MuxV Require Import Base.Num Base.Vec3 Base.RInst Model.Kernel Model.Residual Proofs.SolverPathP.
Import ListNotations.
Local Open Scope R_scope.

Theorem C14_fixed_points_are_zeros : forall atan2 opt solve relax cs Ss Vm g,
  relax <> 0 -> length (residual atan2 opt cs Ss Vm g) = length g ->
  solve_regular atan2 opt solve cs Ss Vm g ->
  (newton_update atan2 opt solve relax cs Ss Vm g = g <-> Forall (fun r => r = 0) (residual atan2 opt cs Ss Vm g)).
Proof. apply fixed_points_are_zeros. Qed.
Print Assumptions C14_fixed_points_are_zeros.

(* the 'linear' solver returns whatever the linear-algebra routine returns for the documented system A gamma = b assembled from the
   freestream section properties; with an exact routine this is the exact solution *)
Theorem C14_linear_solver_exact : forall (atan2 : R -> R -> R) (opt : opts) (solve : list (list R) -> list R -> list R)
  (cs : list (cpt R)) (Ss : list (section R)) (Vm : list (list (v3 R))) (mulv : list (list R) -> list R -> list R),
  (forall A b, mulv A (solve A b) = b) ->
  let '(A, b) := lin_system atan2 opt cs Ss Vm in mulv A (solve_linear atan2 opt solve cs Ss Vm) = b.
Proof.
  intros atan2 opt solve cs Ss Vm mulv H. unfold solve_linear. destruct (lin_system atan2 opt cs Ss Vm) as [A b]. apply H.
Qed.
Print Assumptions C14_linear_solver_exact.

(* the right-hand side and the diagonal of the linear system are the residual's lift term and vortex-lift slope at zero circulation:
   b_i = V_inf^2 CL(alpha_inf) dS_i and A_ii contains 2 |(v_inf + v_rot) x dl| *)
Theorem C14_linear_system_entries : forall (opt : opts) (c : cpt R) (ls : linstate (T:=R)) (V : v3 R),
  lin_rhs opt c ls = Vinf_sel opt c * Vinf_sel opt c * cdS c * l_CL ls /\
  lin_entry opt c ls true V - lin_entry opt c ls false V = 2 * vnorm (vcross (vinf_rot c) (cdl c)).
Proof. split; [reflexivity|]. cbv [lin_entry nadd nsub nmul nopp nofZ RNum]. lra. Qed.
Print Assumptions C14_linear_system_entries.
