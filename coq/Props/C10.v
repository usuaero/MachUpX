(* C10 — trim, target-CL and aerodynamic-centre results satisfy their defining conditions.  Statements only. *)
From Coq Require Import Reals Lra List Bool.
From MuxV Require Import Base.Num Base.Vec3 Base.RInst Model.Helpers Model.AeroState Model.Analyses Proofs.HelpersP Proofs.TrimP.
Import ListNotations.
Local Open Scope R_scope.

Section C10.
  Variables (fcos fsin ftan fatan fasin : R -> R) (fatan2 : R -> R -> R) (d2r r2d : R).
  Variable W : v3 R.
  Variable F : ast R -> list R.                                  (* any solve function; entries [CL; Cm_w; Cm] *)
  Variable solve2 : R -> R -> R -> R -> R -> R -> R * R.         (* any 2x2 linear solver *)

  (* target_CL either runs out of iterations (MaxIterationError) or leaves the aircraft in a state whose lift coefficient,
     as computed by the solver in that state, is within the tolerance of the target *)
  Theorem C10_target_CL_post : forall max_iter s alpha target relax tol a sf,
    target_CL_loop fcos fsin ftan fatan fasin fatan2 d2r r2d W F max_iter s alpha (CL_of F s) target relax tol = Some (a, sf) ->
    Rabs (CL_of F sf - target) <= tol.
  Proof. intros * H. apply target_CL_result in H. destruct H as [[H ->]|H]; exact H. Qed.

  (* pitch_trim either raises or leaves the aircraft in a state in which CL and Cm, as computed by the solver, meet both targets *)
  Theorem C10_pitch_trim_post : forall max_iter s ic alpha flap CLd Cmd relax tol a fl sf,
    pitch_trim_loop fcos fsin ftan fatan fasin fatan2 d2r r2d W F solve2 max_iter s ic alpha flap (trim_res F s CLd Cmd) CLd Cmd relax tol
      = Some (a, fl, sf) ->
    Rabs (nth 0 (F sf) 0 - CLd) <= tol /\ Rabs (nth 2 (F sf) 0 - Cmd) <= tol.
  Proof. intros * H. apply pitch_trim_result in H. destruct H as [[[H ->]|H] _]; exact (big_false _ _ H). Qed.

  (* pitch_trim changes only the velocity (through alpha) and the chosen control: rates, position, attitude are never written *)
  Theorem C10_pitch_trim_frame : forall max_iter s ic alpha flap R CLd Cmd relax tol a fl sf,
    pitch_trim_loop fcos fsin ftan fatan fasin fatan2 d2r r2d W F solve2 max_iter s ic alpha flap R CLd Cmd relax tol = Some (a, fl, sf) ->
    s_w sf = s_w s /\ s_p sf = s_p s /\ s_q sf = s_q s.
  Proof. intros * H. apply pitch_trim_result in H. exact (proj2 H). Qed.

  (* pitch_trim_using_orientation either raises or leaves the aircraft in a state in which CL and Cm, as computed by the solver, meet both
     targets (the targets are whatever the caller passes: the weight coefficient by default, also on a banked aircraft) *)
  Theorem C10_orientation_trim_post : forall max_iter s ic phi theta psi flap CLd Cmd relax tol v0 w0 p0 th fl sf,
    orient_trim_loop fcos fsin F solve2 max_iter s ic phi theta psi flap (trim_res F s CLd Cmd) CLd Cmd relax tol v0 w0 p0 = Some (th, fl, sf) ->
    Rabs (nth 0 (F sf) 0 - CLd) <= tol /\ Rabs (nth 2 (F sf) 0 - Cmd) <= tol.
  Proof. intros * H. apply orient_trim_result in H. destruct H as [(H & -> & _)|[H _]]; exact (big_false _ _ H). Qed.
End C10.
Print Assumptions C10_orientation_trim_post.

(* ... and changes only the elevation angle and the chosen pitch control: with the real cos and sin, the state it returns is the one it
   was given (already trimmed), or has the attitude built from the unchanged bank and heading and the returned elevation, the Earth-fixed
   velocity, the rates and the position recorded before the loop, and every control but the chosen one as it was *)
Theorem C10_orientation_trim_frame : forall F solve2 max_iter s ic phi theta psi flap R CLd Cmd relax tol v0 w0 p0 th fl sf,
  orient_trim_loop cos sin F solve2 max_iter s ic phi theta psi flap R CLd Cmd relax tol v0 w0 p0 = Some (th, fl, sf) ->
  (sf = s /\ th = theta /\ fl = flap) \/
  (s_q sf = euler_to_quat cos sin phi th psi /\ s_v sf = v0 /\ s_w sf = w0 /\ s_p sf = p0 /\
   forall j, j <> ic -> nth j (s_c sf) 0 = nth j (s_c s) 0).
Proof.
  intros * H. apply orient_trim_result in H. destruct H as [[_ H]|(_ & Hq & Hv & H)]; [left; exact H|].
  right. split; [exact Hq|]. split; [|exact H].
  rewrite Hv, Hq. apply inv_trans_trans_unit, euler_to_quat_unit.
Qed.
Print Assumptions C10_orientation_trim_frame.
Print Assumptions C10_target_CL_post.
Print Assumptions C10_pitch_trim_post.
Print Assumptions C10_pitch_trim_frame.

(* aerodynamic centre: with the moment transferred to the returned point, Cm_P = Cm - x Cz + z Cx, the first and second central
   alpha-differences of Cm_P vanish (the point about which the pitching moment is stationary in angle of attack) *)
Theorem C10_aero_center_stationary : forall Cx0 Cx1 Cx2 Cz0 Cz1 Cz2 Cm0 Cm1 Cm2 delta,
  delta <> 0 ->
  (- Cz2 + Cz0) / (2 * delta) * ((- Cx2 + 2 * Cx1 - Cx0) / (delta * delta)) -
  (- Cx2 + Cx0) / (2 * delta) * ((- Cz2 + 2 * Cz1 - Cz0) / (delta * delta)) <> 0 ->
  let x := x_ac Cx0 Cx1 Cx2 Cz0 Cz1 Cz2 Cm0 Cm1 Cm2 delta in
  let z := z_ac Cx0 Cx1 Cx2 Cz0 Cz1 Cz2 Cm0 Cm1 Cm2 delta in
  let CmP Cx Cz Cm := Cm - x * Cz + z * Cx in
  (CmP Cx2 Cz2 Cm2 - CmP Cx0 Cz0 Cm0) / (2 * delta) = 0 /\
  (CmP Cx2 Cz2 Cm2 - 2 * CmP Cx1 Cz1 Cm1 + CmP Cx0 Cz0 Cm0) / (delta * delta) = 0.
Proof. apply aero_center_stationary. Qed.
Print Assumptions C10_aero_center_stationary.

(* the model's aero_center returns exactly that point and the moment about it *)
Theorem C10_aero_center_is_that_point : forall fcos fsin ftan fatan fasin fatan2 d2r r2d W F s delta,
  let '(x, z, cm, _) := aero_center fcos fsin ftan fatan fasin fatan2 d2r r2d W F s delta in
  let '(a0, b0, V0) := get_ae fasin fatan2 r2d W s in
  let s0 := set_ae fcos fsin ftan fatan fasin fatan2 d2r r2d W s (Some (a0 - delta)) (Some b0) (Some V0) in
  let s2 := set_ae fcos fsin ftan fatan fasin fatan2 d2r r2d W s0 (Some (a0 + delta)) (Some b0) (Some V0) in
  let g (l : list R) (i : nat) := nth i l 0 in
  let Cx l := g l 0%nat in let Cz l := g l 1%nat in let Cm l := g l 2%nat in
  x = x_ac (Cx (F s0)) (Cx (F s)) (Cx (F s2)) (Cz (F s0)) (Cz (F s)) (Cz (F s2)) (Cm (F s0)) (Cm (F s)) (Cm (F s2)) delta /\
  z = z_ac (Cx (F s0)) (Cx (F s)) (Cx (F s2)) (Cz (F s0)) (Cz (F s)) (Cz (F s2)) (Cm (F s0)) (Cm (F s)) (Cm (F s2)) delta /\
  cm = Cm (F s) - x * Cz (F s) + z * Cx (F s).
Proof.
  intros. unfold aero_center. destruct (get_ae fasin fatan2 r2d W s) as [[a0 b0] V0].
  repeat split; reflexivity.
Qed.
Print Assumptions C10_aero_center_is_that_point.
