(* C04 — mirror symmetry: reflected aircraft and state give reflected loads.  Statements only. *)
From Coq Require Import Reals Lra List Bool Lia.
From MuxV Require Import Base.Num Base.Vec3 Base.RInst Model.Helpers Model.Kernel Model.Residual Model.Integrate
  Proofs.HelpersP Proofs.KernelP Proofs.ResidualEqP Proofs.SceneEqP.
Import ListNotations.
Local Open Scope R_scope.

(* reflection through the x-z plane *)
Definition M (v : v3 R) : v3 R := V3 (vx v) (- vy v) (vz v).

(* the mirror image of a horseshoe: nodes reflected AND its orientation reversed (MachUpX orders nodes left to right, so the
   inbound node of the mirrored vortex is the image of the outbound node) *)
Definition mirror_hs (h : hshoe R) : hshoe R := mk_hs (M (hP1 h)) (M (hP0 h)) (M (hJ1 h)) (M (hJ0 h)) (M (hu1 h)) (M (hu0 h)).

Theorem C04_influence_mirrors : forall cutoff i4p diag pc h,
  vji (fun x => x) cutoff i4p diag (M pc) (mirror_hs h) = M (vji (fun x => x) cutoff i4p diag pc h).
Proof.
  intros cutoff i4p diag pc h.
  pose proof (vji_sim vmir (-1) vmir_add vmir_scale vmir_dot vmir_cross 1 vzero Rlt_0_1 cutoff i4p diag pc h) as H.
  unfold Sh, Sp, Rdiv in H. rewrite Rinv_1, !Rmult_1_l, Rmult_1_r, !vscale_1_l, !vadd_0_r, <- vopp_as_vscale in H.
  change (mirror_hs h) with (swap_hs (mk_hs (M (hP0 h)) (M (hP1 h)) (M (hJ0 h)) (M (hJ1 h)) (M (hu0 h)) (M (hu1 h)))).
  rewrite vji_swap. change vmir with M in H. rewrite H. apply vopp_vopp.
Qed.
Print Assumptions C04_influence_mirrors.

(* mirrored control point: vectors reflected; the bound-vortex vector and the span vector additionally change sign because the
   node order is reversed; scalars unchanged.  Its freestream is the reflected one (beta, roll and yaw rate negated). *)
Definition mirror_cpt (c : cpt R) : cpt R :=
  mk_cpt (vopp (M (cdl c))) (M (cua c)) (M (cun c)) (vopp (M (cus c))) (cdS c) (ccbar c) (cnu c) (csos c) (ccsi c) (M (cvinf c)) (M (cvrot c)).

(* the residual at a control point of the mirrored scene equals the residual at its image, for every option combination *)
Theorem C04_residual_mirrors : forall atan2 opt c S Vr g gi,
  residual_at atan2 opt (mirror_cpt c) S (map M Vr) g gi = residual_at atan2 opt c S Vr g gi.
Proof.
  intros atan2 opt c S Vr g gi.
  pose proof (residual_at_sim vmir vmir_add vmir_scale vmir_dot (-1) ltac:(lra) vmir_cross 1 Rlt_0_1 atan2 opt c S Vr g gi (or_introl eq_refl)) as H.
  assert (Ec : Tc vmir (-1) 1 c = mirror_cpt c).
  { unfold Tc, mirror_cpt. rewrite !Rmult_1_l, <- !vopp_as_vscale. reflexivity. }
  rewrite Ec, (map_ext _ _ (TV_1 vmir)), map_Rmult_1, !Rmult_1_l in H. exact H.
Qed.
Print Assumptions C04_residual_mirrors.

(* re-ordering: the induced velocity does not depend on the order in which the horseshoes are listed (left segments list them reversed) *)
Theorem C04_order_reversal : forall (Vr : list (v3 R)) g, length Vr = length g -> induced (rev Vr) (rev g) = induced Vr g.
Proof. exact induced_rev. Qed.
Print Assumptions C04_order_reversal.

(* loads: the section vortex force of the mirrored section is the reflected force, and its moment about the reflected CG is minus
   the reflected moment (pseudo-vector): Fx, Fz, My unchanged; Fy, Mx, Mz negated *)
Theorem C04_loads_mirror : forall rho g (v dl r : v3 R),
  let F := vscale (rho * g) (vcross v dl) in
  let F' := vscale (rho * g) (vcross (M v) (vopp (M dl))) in
  F' = M F /\ vcross (M r) F' = vopp (M (vcross r F)).
Proof. intros. subst F F'. unfold M. split; vec. Qed.
Print Assumptions C04_loads_mirror.

(* ---------------------------------------------------------------------------------------------------------------------------------
   The part of H_geom_mirror that concerns the general (Reid-Hunsaker) corrections is a theorem: for the reflected wing (sections in
   reverse order, inbound and outbound nodes and their chords swapped, span coordinate measured from the other tip, span directions
   still pointing left to right) every control point sees the mirror image of the effective lines and joints, in reverse order, with
   the roles of the inbound and outbound lines exchanged.  numpy.gradient with edge_order=2 on the cumulative chord length is part of
   the model; it needs at least three sections per wing, as numpy does. *)
From MuxV Require Import Model.Reid Proofs.ReidP.
Theorem C04_effective_lines_mirror : forall L (w : list (sec R)) (i : sec R), (3 <= length w)%nat ->
  reid_row exp (rev (map (sec_mirror L) w)) (sec_mirror L i) = mirror4 (reid_row exp w i).
Proof. exact reid_row_mirror. Qed.
Print Assumptions C04_effective_lines_mirror.

(* the span coordinate airplane.py measures from the left tip (Model/Gather.v): for the reflected wing - segments in reverse order, sides
   exchanged, span fractions stored in reverse - control points and nodes sit at L - s in reverse order with inbound and outbound nodes
   exchanged, which is the relation [sec_mirror] above starts from *)
From MuxV Require Import Model.Gather Proofs.GatherP.
Theorem C04_span_coordinates_mirror : forall segs : list (segsp R), let L := wing_length segs in
  wing_PC 0 (mirror_wing segs) = refl L (wing_PC 0 segs) /\
  wing_P0 0 (mirror_wing segs) = refl L (wing_P1 0 segs) /\
  wing_P1 0 (mirror_wing segs) = refl L (wing_P0 0 segs).
Proof.
  intros segs L.
  exact (conj (wing_mirror _ _ seg_PC_flip segs) (conj (wing_mirror _ _ seg_P0_flip segs) (wing_mirror _ _ seg_P1_flip segs))).
Qed.
Print Assumptions C04_span_coordinates_mirror.

(* segment level (Model/QCurve.v): the per-side sign conventions of the dihedral and sweep getters, the unswept section vectors and the
   lifting-line offset make the left half of a wing the mirror image of the right half, section by section (the quarter-chord curve
   itself: C12_curve_mirror) *)
From MuxV Require Import Model.QCurve Proofs.QCurveP.
Theorem C04_segment_geometry_mirrors : forall dr d s tw di qc off chord ua,
  (get_dihedral dr true d s = - get_dihedral dr false d s /\ get_sweep dr true d s = - get_sweep dr false d s) /\
  (unswept_axial cos sin tw (- di) = mirror_y (unswept_axial cos sin tw di) /\
   unswept_normal cos sin tw (- di) = mirror_y (unswept_normal cos sin tw di)) /\
  ll_loc (mirror_y qc) off chord (mirror_y ua) = mirror_y (ll_loc qc off chord ua).
Proof.
  split; [apply getters_mirror|]. split; [|apply ll_loc_mirror].
  pose proof (unswept_vectors_mirror tw di) as [H1 [H2 _]]. split; assumption.
Qed.
Print Assumptions C04_segment_geometry_mirrors.

(* aircraft level (Model/SegSort.v, Proofs/SegSortP.v): the left-hand segments of a wing are put in order by repeatedly picking the one
   whose tip is farthest from the body x-axis.  With -1 as the distance to beat in every pass (fix d0fcbd7) the result holds every segment
   of the wing exactly once, whatever the distances (they are not negative) - as the right-hand side, which starts from infinity, always
   did; with 0, as in the pinned snapshot, a segment whose tip lies on the axis is never picked: the left-hand description of an aircraft
   loses a segment that its right-hand mirror image keeps. *)
From MuxV Require Import Model.SegSort Proofs.SegSortP.
Theorem C04_left_segments_all_sorted : forall (l : list (seg (T:=R))), NoDup (map fst l) -> (forall i n, In (i, n) l -> 0 <= n) ->
  NoDup (sort_left (-1) (length l) l []) /\ forall i, In i (sort_left (-1) (length l) l []) <-> In i (map fst l).
Proof.
  intros l _ Hpos. destruct (sort_left_all (-1) l (length l) (le_n _)) as [Hnd H]. split; [exact Hnd|].
  intros i. rewrite H, in_map_iff. split.
  - intros (n & Hin & _). exists (i, n). split; [reflexivity|exact Hin].
  - intros ([j n] & <- & Hin). exists n. split; [exact Hin|]. specialize (Hpos j n Hin). lra.
Qed.
Print Assumptions C04_left_segments_all_sorted.
Example C04_zero_to_beat_refuted :
  NoDup (map fst [(1%nat, 0); (2%nat, 3)]) /\ (forall i n, In (i, n) [(1%nat, 0); (2%nat, 3)] -> 0 <= n) /\ ~ In 1%nat (sort_left 0 2 [(1%nat, 0); (2%nat, 3)] []).
Proof.
  split; [repeat constructor; cbn; intuition congruence|]. split; [intros i n [H|[H|[]]]; inversion H; lra|].
  intro H. apply sort_left_all in H; [|apply le_n]. destruct H as (n & [[= <-]|[[=]|[]]] & Hn). lra.
Qed.
