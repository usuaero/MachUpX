(* C08 — analyses are side-effect free.  Statements only.  Model: Model/Analyses.v (the perturb/restore code of
   each analysis as a functional of an abstract solve function), Model/AeroState.v. *)
From Coq Require Import Reals Lra List Bool.
From MuxV Require Import Base.Num Base.Vec3 Base.RInst Model.Helpers Model.AeroState Model.Analyses Proofs.HelpersP Proofs.AnalysesP Proofs.TrigP.
Import ListNotations.
Local Open Scope R_scope.

Section C08.
  (* the trigonometric functions are arbitrary here; what is used of them is only that encoding a body-frame velocity as
     (alpha, beta, V) and decoding it again round-trip on the states the analysis visits (okA / okB) *)
  Variables (fcos fsin ftan fatan fasin : R -> R) (fatan2 : R -> R -> R) (d2r r2d : R).
  Variable W : v3 R.                      (* any uniform wind *)
  Variable F : ast R -> list R.           (* any solve function *)
  Variable okA : R -> R -> R -> Prop.
  Variable okB : v3 R -> Prop.
  Hypothesis HA : forall a b V, okA a b V -> enc fasin fatan2 r2d (dec fcos fsin ftan fatan d2r a b V) = (a, b, V).
  Hypothesis HB : forall vb, okB vb -> let '(a, b, V) := enc fasin fatan2 r2d vb in dec fcos fsin ftan fatan d2r a b V = vb.

  Definition unit_attitude (s : ast R) : Prop :=
    qw (s_q s) * qw (s_q s) + qx (s_q s) * qx (s_q s) + qy (s_q s) * qy (s_q s) + qz (s_q s) * qz (s_q s) = 1.
  (* body-frame velocity relative to the air *)
  Definition rel_body_velocity (s : ast R) : v3 R := quat_trans (s_q s) (vsub (s_v s) W).

  Lemma unit_attitude_qn2 s : unit_attitude s -> qn2 (s_q s) = 1.
  Proof. destruct s as [v w p [a b c d] cc]. exact (fun H => H). Qed.

  Theorem C08_stability_derivatives_restore : forall s dth, unit_attitude s -> okB (rel_body_velocity s) ->
    let '(a0, b0, V0) := enc fasin fatan2 r2d (rel_body_velocity s) in
    okA (a0 + dth) b0 V0 -> okA (a0 - dth) b0 V0 -> okA a0 (b0 + dth) V0 -> okA a0 (b0 - dth) V0 ->
    snd (stability fcos fsin ftan fatan fasin fatan2 d2r r2d W F s dth) = s.
  Proof.
    intros s dth Hq Hok. apply unit_attitude_qn2 in Hq.
    destruct (enc fasin fatan2 r2d (rel_body_velocity s)) as [[a0 b0] V0] eqn:E. intros H1 H2 H3 H4.
    rewrite stability_eq with (okA := okA) (a0 := a0) (b0 := b0) (V0 := V0) by assumption.
    eapply with_ae_id; eassumption.
  Qed.

  Theorem C08_damping_derivatives_restore : forall s dw pp qq rr lat lon,
    snd (damping fasin fatan2 r2d W F s dw pp qq rr lat lon) = s.
  Proof. apply damping_restores. Qed.

  Theorem C08_control_derivatives_restore : forall s i dth, (i < length (s_c s))%nat ->
    snd (control_deriv d2r F s i dth) = s.
  Proof. apply control_deriv_restores. Qed.

  Theorem C08_aero_center_restores : forall s delta, unit_attitude s -> okB (rel_body_velocity s) ->
    snd (aero_center fcos fsin ftan fatan fasin fatan2 d2r r2d W F s delta) = s.
  Proof.
    intros s delta Hq Hok. apply unit_attitude_qn2 in Hq.
    destruct (enc fasin fatan2 r2d (rel_body_velocity s)) as [[a0 b0] V0] eqn:E.
    rewrite aero_center_eq with (a0 := a0) (b0 := b0) (V0 := V0) by exact E.
    eapply with_ae_id; eassumption.
  Qed.
End C08.
Print Assumptions C08_stability_derivatives_restore.
Print Assumptions C08_damping_derivatives_restore.
Print Assumptions C08_control_derivatives_restore.
Print Assumptions C08_aero_center_restores.

(* ---- the same statements with the real trigonometric functions and NumPy's atan2: the encoding hypotheses are theorems
   (Proofs/TrigP.v) for angles inside (-90, 90) degrees, positive airspeed and forward flight (u > 0) ---- *)
Theorem C08_stability_derivatives_restore_real : forall W F s dth, unit_attitude s -> okB_real (rel_body_velocity W s) ->
  let '(a0, b0, V0) := enc asin Ratan2 r2d (rel_body_velocity W s) in
  okA_real (a0 + dth) b0 V0 -> okA_real (a0 - dth) b0 V0 -> okA_real a0 (b0 + dth) V0 -> okA_real a0 (b0 - dth) V0 ->
  snd (stability cos sin tan atan asin Ratan2 d2r r2d W F s dth) = s.
Proof. intros W F. exact (C08_stability_derivatives_restore cos sin tan atan asin Ratan2 d2r r2d W F okA_real okB_real HA_real HB_real). Qed.
Print Assumptions C08_stability_derivatives_restore_real.

Theorem C08_aero_center_restores_real : forall W F s delta, unit_attitude s -> okB_real (rel_body_velocity W s) ->
  snd (aero_center cos sin tan atan asin Ratan2 d2r r2d W F s delta) = s.
Proof. intros W F. exact (C08_aero_center_restores cos sin tan atan asin Ratan2 d2r r2d W F okB_real HB_real). Qed.
Print Assumptions C08_aero_center_restores_real.

(* ---------------------------------------------------------------------------------------------------------------------------------
   state_derivatives and pitch_trim_using_orientation(set_trim_state=False) put the state back through set_state with a keyword
   dictionary built from get_state() (Model/Restore.v).  The complete state - position, attitude, Earth-fixed velocity, body rates
   AND the frame the rates were given in, which selects the axes of the damping derivatives - comes back exactly (fix da9be0f);
   the second statement is the behaviour before the fix: everything but the frame. *)
From MuxV Require Import Model.Restore.
Theorem C08_full_restore_keeps_rate_frame : forall fcos fsin fasin fatan2 d2r (s : fstate R), qn2 (f_q s) = 1 ->
  restore fcos fsin fasin fatan2 d2r s = s /\
  restore_without_frame fcos fsin fasin fatan2 d2r s = mk_fs (f_p s) (f_q s) (f_v s) (f_w s) FBody.
Proof. split; [apply restore_id | apply reset_from_unit]; assumption. Qed.
Print Assumptions C08_full_restore_keeps_rate_frame.
Example C08_restore_nonvacuous : qn2 (Q4 1 0 0 0 : quat R) = 1.
Proof. cbn; rnum. lra. Qed.
