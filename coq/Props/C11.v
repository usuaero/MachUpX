(* C11 — Galilean invariance under a uniform wind.  Statements only. *)
From Coq Require Import Reals Lra List Bool.
From MuxV Require Import Base.Num Base.Vec3 Base.RInst Model.Helpers Model.AeroState Model.Analyses Model.Kernel Model.Residual
  Proofs.HelpersP Proofs.AnalysesP.
Import ListNotations.
Local Open Scope R_scope.

(* the freestream at every control point (and the reference freestream of the result table) is wind - velocity, so a scene
   with wind W and Earth-fixed velocity v has exactly the control-point data of the still-air scene with velocity v - W *)
Theorem C11_solve_galilean : forall (W v : v3 R) dl ua un us dS cbar nu sos csi vrot,
  mk_cpt dl ua un us dS cbar nu sos csi (vadd (vopp v) W) vrot =
  mk_cpt dl ua un us dS cbar nu sos csi (vadd (vopp (vsub v W)) vzero) vrot.
Proof. intros. f_equal. exact (freestream_galilean W v). Qed.
Print Assumptions C11_solve_galilean.

Section C11.
  Variables (fcos fsin ftan fatan fasin : R -> R) (fatan2 : R -> R -> R) (d2r r2d : R).
  Variable W : v3 R.
  Variables (FW F0 : ast R -> list R).
  (* the aircraft state of the still-air twin *)
  Definition twin (s : ast R) : ast R := mk_ast (vsub (s_v s) W) (s_w s) (s_p s) (s_q s) (s_c s).
  (* by C11_solve_galilean the two scenes solve to the same loads *)
  Hypothesis solve_twin : forall s, FW s = F0 (twin s).

  Theorem C11_analyses_galilean :
    (forall s dth,
      let '(A, B, sf) := stability fcos fsin ftan fatan fasin fatan2 d2r r2d W FW s dth in
      let '(A0, B0, sf0) := stability fcos fsin ftan fatan fasin fatan2 d2r r2d vzero F0 (twin s) dth in
      A = A0 /\ B = B0 /\ twin sf = sf0) /\
    (forall s dw pp qq rr lat lon,
      let '(A, B, C, sf) := damping fasin fatan2 r2d W FW s dw pp qq rr lat lon in
      let '(A0, B0, C0, sf0) := damping fasin fatan2 r2d vzero F0 (twin s) dw pp qq rr lat lon in
      A = A0 /\ B = B0 /\ C = C0 /\ twin sf = sf0) /\
    (forall s i dth,
      let '(A, sf) := control_deriv d2r FW s i dth in
      let '(A0, sf0) := control_deriv d2r F0 (twin s) i dth in A = A0 /\ twin sf = sf0) /\
    (forall s delta,
      let '(x, z, cm, sf) := aero_center fcos fsin ftan fatan fasin fatan2 d2r r2d W FW s delta in
      let '(x0, z0, cm0, sf0) := aero_center fcos fsin ftan fatan fasin fatan2 d2r r2d vzero F0 (twin s) delta in
      x = x0 /\ z = z0 /\ cm = cm0 /\ twin sf = sf0) /\
    (forall fuel s alpha CL target relax tol,
      match target_CL_loop fcos fsin ftan fatan fasin fatan2 d2r r2d W FW fuel s alpha CL target relax tol,
            target_CL_loop fcos fsin ftan fatan fasin fatan2 d2r r2d vzero F0 fuel (twin s) alpha CL target relax tol with
      | Some (a, sf), Some (a0, sf0) => a = a0 /\ twin sf = sf0
      | None, None => True
      | _, _ => False
      end).
  Proof.
    repeat apply conj; intros.
    - rewrite (stability_shift fcos fsin ftan fatan fasin fatan2 d2r r2d W FW F0 solve_twin).
      destruct (stability _ _ _ _ _ _ _ _ W _ _ _) as [[A B] sf]. auto.
    - rewrite (damping_shift fasin fatan2 r2d W FW F0 solve_twin).
      destruct (damping _ _ _ W _ _ _ _ _ _ _ _) as [[[A B] C] sf]. auto.
    - rewrite (control_shift d2r W FW F0 solve_twin). destruct (control_deriv _ FW _ _ _) as [A sf]. auto.
    - rewrite (aero_center_shift fcos fsin ftan fatan fasin fatan2 d2r r2d W FW F0 solve_twin).
      destruct (aero_center _ _ _ _ _ _ _ _ W _ _ _) as [[[x z] cm] sf]. auto.
    - rewrite (target_CL_shift fcos fsin ftan fatan fasin fatan2 d2r r2d W FW F0 solve_twin).
      destruct (target_CL_loop _ _ _ _ _ _ _ _ W _ _ _ _ _ _ _ _) as [[a sf]|]; cbn; auto.
  Qed.
End C11.
Print Assumptions C11_analyses_galilean.
