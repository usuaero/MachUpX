(* The number carrier at R: all theorems are about this instance. *)
From Coq Require Import Reals Lra.
From MuxV Require Import Base.Num.

Definition Rltb (x y : R) : bool := if Rlt_dec x y then true else false.
Definition Rleb (x y : R) : bool := if Rle_dec x y then true else false.
Definition Reqb (x y : R) : bool := if Req_EM_T x y then true else false.

#[export] Instance RNum : Num R := {|
  n0 := 0%R; n1 := 1%R;
  nadd := Rplus; nsub := Rminus; nmul := Rmult; ndiv := Rdiv;
  nopp := Ropp; nsqrt := sqrt; nabs := Rabs;
  nltb := Rltb; nleb := Rleb; neqb := Reqb;
  nofZ := IZR |}.

Local Open Scope R_scope.

(* the model's boolean comparisons reflect the order: [destruct (Rltb_spec x y)] gives both cases with their facts *)
Lemma Rltb_spec x y : BoolSpec (x < y) (y <= x) (Rltb x y).
Proof. unfold Rltb; destruct (Rlt_dec x y); constructor; [assumption | apply Rnot_lt_le; assumption]. Qed.
Lemma Rleb_spec x y : BoolSpec (x <= y) (y < x) (Rleb x y).
Proof. unfold Rleb; destruct (Rle_dec x y); constructor; [assumption | apply Rnot_le_lt; assumption]. Qed.
Lemma Reqb_spec x y : BoolSpec (x = y) (x <> y) (Reqb x y).
Proof. unfold Reqb; destruct (Req_EM_T x y); constructor; assumption. Qed.
Lemma Rltb_true x y : Rltb x y = true <-> x < y.
Proof. destruct (Rltb_spec x y); split; lra. Qed.
Lemma Rltb_false x y : Rltb x y = false <-> y <= x.
Proof. destruct (Rltb_spec x y); split; lra. Qed.
Lemma Rleb_true x y : Rleb x y = true <-> x <= y.
Proof. destruct (Rleb_spec x y); split; lra. Qed.
Lemma Rleb_false x y : Rleb x y = false <-> y < x.
Proof. destruct (Rleb_spec x y); split; lra. Qed.
Lemma Reqb_true x y : Reqb x y = true <-> x = y.
Proof. destruct (Reqb_spec x y); split; congruence. Qed.

Lemma sin_cos_sq x : sin x * sin x + cos x * cos x = 1.
Proof. exact (sin2_cos2 x). Qed.
Lemma sqrt_unique x y : 0 <= y -> y * y = x -> sqrt x = y.
Proof. intros Hy <-. apply sqrt_square, Hy. Qed.
Lemma sqrt_pos_sq x : 0 < x -> 0 < sqrt x /\ sqrt x * sqrt x = x.
Proof. intro H. split; [apply sqrt_lt_R0, H | apply sqrt_sqrt, Rlt_le, H]. Qed.
Lemma inv_sqrt_sq x : 0 <= x -> / sqrt x * / sqrt x = / x.
Proof. intros H. rewrite <- Rinv_mult, sqrt_sqrt by exact H. reflexivity. Qed.

Lemma atan_quot_direction x y : 0 < x -> cos (atan (y / x)) = x / sqrt (x * x + y * y) /\ sin (atan (y / x)) = y / sqrt (x * x + y * y).
Proof.
  intro Hx. destruct (sqrt_pos_sq (x * x + y * y)) as [Hp Hp2]; [nra|].
  rewrite cos_atan, sin_atan, (sqrt_unique _ (sqrt (x * x + y * y) / x)).
  - split; field; lra.
  - apply Rlt_le, Rdiv_lt_0_compat; lra.
  - unfold Rsqr. field_simplify_eq; [|lra]. nra.
Qed.

(* shows the class operations as the real ones, in the goal and in the hypotheses *)
Ltac rnum :=
  change (@nadd R RNum) with Rplus in *; change (@nsub R RNum) with Rminus in *; change (@nmul R RNum) with Rmult in *;
  change (@ndiv R RNum) with Rdiv in *; change (@nopp R RNum) with Ropp in *; change (@nsqrt R RNum) with sqrt in *;
  change (@nabs R RNum) with Rabs in *; change (@n0 R RNum) with 0%R in *; change (@n1 R RNum) with 1%R in *;
  change (@nltb R RNum) with Rltb in *; change (@nleb R RNum) with Rleb in *; change (@neqb R RNum) with Reqb in *;
  change (@nofZ R RNum) with IZR in *.
