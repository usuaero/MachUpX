(* Span coordinates along a wing (C04): the reflected wing (segments in reverse order, sides exchanged, span fractions stored in reverse)
   has the span coordinates L - s in reverse order, with the roles of inbound and outbound nodes exchanged - the relation that
   [sec_mirror] in Proofs/ReidP.v assumes. *)
From Coq Require Import Reals List.
From MuxV Require Import Base.RInst Model.Gather.
Import ListNotations.
Local Open Scope R_scope.

Definition flip (g : segsp R) : segsp R := mk_segsp (negb (g_left g)) (g_b g) (rev (g_nodes g)) (rev (g_cps g)).
Definition mirror_wing (segs : list (segsp R)) : list (segsp R) := rev (map flip segs).
Definition refl (L : R) (l : list R) : list R := rev (map (fun s => L - s) l).

Lemma wing_length_from (l : list (segsp R)) : forall a, fold_left (fun a g => a + g_b g) l a = a + wing_length l.
Proof.
  unfold wing_length. induction l as [|x l IH]; intro a; cbn [fold_left]; rnum; [symmetry; apply Rplus_0_r|].
  rewrite IH, (IH (0 + g_b x)), Rplus_0_l. apply Rplus_assoc.
Qed.
Lemma wing_length_cons g (r : list (segsp R)) : wing_length (g :: r) = g_b g + wing_length r.
Proof. unfold wing_length at 1. cbn [fold_left]. rewrite wing_length_from. rewrite Rplus_0_l. reflexivity. Qed.
Lemma wing_length_snoc (l : list (segsp R)) g : wing_length (l ++ [g]) = wing_length l + g_b g.
Proof. unfold wing_length. rewrite fold_left_app. reflexivity. Qed.

Lemma mirror_wing_cons g r : mirror_wing (g :: r) = mirror_wing r ++ [flip g].
Proof. reflexivity. Qed.
Lemma wing_length_mirror segs : wing_length (mirror_wing segs) = wing_length segs.
Proof.
  induction segs as [|g r IH]; [reflexivity|]. rewrite mirror_wing_cons, wing_length_snoc, IH, wing_length_cons. apply Rplus_comm.
Qed.

Lemma wing_map_app (f : R -> segsp R -> list R) l1 : forall cur l2,
  wing_map f cur (l1 ++ l2) = wing_map f cur l1 ++ wing_map f (cur + wing_length l1) l2.
Proof.
  induction l1 as [|g l1 IH]; intros cur l2; cbn [app wing_map]; [rewrite Rplus_0_r; reflexivity|].
  rewrite IH, wing_length_cons, app_assoc, Rplus_assoc. reflexivity.
Qed.

Lemma span_of_flip L l cur b s : span_of (negb l) (L - cur - b) b s = L - span_of l cur b s.
Proof. destruct l; unfold span_of; cbn [negb]; rnum; ring. Qed.
Lemma spans_flip L l cur b ss : map (span_of (negb l) (L - cur - b) b) (rev ss) = refl L (map (span_of l cur b) ss).
Proof. unfold refl. rewrite map_map, <- map_rev. apply map_ext, span_of_flip. Qed.

Lemma removelast_rev {A} (l : list A) : removelast (rev l) = rev (tl l).
Proof. destruct l as [|a l]; [reflexivity|]. apply removelast_last. Qed.
Lemma tl_rev {A} (l : list A) : tl (rev l) = rev (removelast l).
Proof. rewrite <- (rev_involutive (tl (rev l))), <- removelast_rev, rev_involutive. reflexivity. Qed.
Lemma map_tl {A B} (f : A -> B) l : map f (tl l) = tl (map f l).
Proof. destruct l; reflexivity. Qed.
Lemma map_removelast {A B} (f : A -> B) l : map f (removelast l) = removelast (map f l).
Proof. induction l as [|a [|b l] IH]; [reflexivity..|]. cbn [removelast map] in *. f_equal. exact IH. Qed.

Lemma seg_PC_flip L cur g : seg_PC (L - cur - g_b g) (flip g) = refl L (seg_PC cur g).
Proof. apply spans_flip. Qed.
Lemma seg_nodes_flip L cur g : seg_nodes (L - cur - g_b g) (flip g) = refl L (seg_nodes cur g).
Proof. apply spans_flip. Qed.
Lemma seg_P0_flip L cur g : seg_P0 (L - cur - g_b g) (flip g) = refl L (seg_P1 cur g).
Proof. unfold seg_P0, seg_P1. rewrite seg_nodes_flip. unfold refl. rewrite removelast_rev, map_tl. reflexivity. Qed.
Lemma seg_P1_flip L cur g : seg_P1 (L - cur - g_b g) (flip g) = refl L (seg_P0 cur g).
Proof. unfold seg_P0, seg_P1. rewrite seg_nodes_flip. unfold refl. rewrite tl_rev, map_removelast. reflexivity. Qed.

Section Mirror.
  Variables F F' : R -> segsp R -> list R.
  Hypothesis HF : forall L c g, F' (L - c - g_b g) (flip g) = refl L (F c g).
  Lemma wing_map_mirror L segs : forall cur,
    wing_map F' (L - cur - wing_length segs) (mirror_wing segs) = refl L (wing_map F cur segs).
  Proof.
    induction segs as [|g r IH]; intro cur; [reflexivity|].
    rewrite mirror_wing_cons, wing_map_app, wing_length_mirror, wing_length_cons. cbn [wing_map].
    replace (L - cur - (g_b g + wing_length r)) with (L - (cur + g_b g) - wing_length r) by ring. rewrite IH.
    replace (L - (cur + g_b g) - wing_length r + wing_length r) with (L - cur - g_b g) by ring.
    rewrite app_nil_r, HF. unfold refl. rewrite map_app, rev_app_distr. reflexivity.
  Qed.
  Corollary wing_mirror segs : wing_map F' 0 (mirror_wing segs) = refl (wing_length segs) (wing_map F 0 segs).
  Proof. rewrite <- wing_map_mirror. f_equal. ring. Qed.
End Mirror.

Theorem seg_nodes_shared cur g : tl (seg_P0 cur g) = removelast (seg_P1 cur g).
Proof.
  unfold seg_P0, seg_P1. destruct (seg_nodes cur g) as [|a [|b [|c l]]]; reflexivity.
Qed.
