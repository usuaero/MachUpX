(* C02: the value under every key of the result table is an additive function of the (force, moment) pair, so totals and segment
   sums carry over to every frame and to the coefficients; the freestream triad is orthonormal because it is built by normalised
   cross products. *)
From Coq Require Import Reals Lra List.
From MuxV Require Import Base.Num Base.Vec3 Base.RInst Model.Integrate Proofs.VecP.
Local Open Scope R_scope.

Lemma vunit_unit (a : v3 R) : vnorm2 a = 1 -> vunit a = a.
Proof. intros H. unfold vunit, vnorm. rewrite H, vdivs_as_vscale. rnum. rewrite sqrt_1, Rinv_1. apply vscale_1_l. Qed.
Lemma vunit_scale k (a : v3 R) : 0 < k -> vunit (vscale k a) = vunit a.
Proof.
  intros Hk. unfold vunit. rewrite vnorm_scale, vdivs_scale, vdivs_as_vscale by lra.
  unfold Rdiv. rewrite Rinv_mult, <- Rmult_assoc, Rinv_r, Rmult_1_l by lra. reflexivity.
Qed.
Lemma vdot_vunit_r (a b : v3 R) : vdot a b = 0 -> vdot a (vunit b) = 0.
Proof. intros H. unfold vunit. rewrite vdivs_as_vscale, vdot_scale_r, H. apply Rmult_0_r. Qed.

Lemma fold_left_hom {A B} (f : A -> A -> A) (g : B -> B -> B) (h : A -> B) :
  (forall a b, h (f a b) = g (h a) (h b)) -> forall l acc, h (fold_left f l acc) = fold_left g (map h l) (h acc).
Proof. intros Hh. induction l as [|x l IH]; intros acc; [reflexivity|]. cbn [fold_left map]. rewrite IH, Hh. reflexivity. Qed.

Lemma mat3_add r0 r1 r2 a b : mat3 r0 r1 r2 (vadd a b) = vadd (mat3 r0 r1 r2 a) (mat3 r0 r1 r2 b).
Proof. unfold mat3. rewrite !vdot_add_r. reflexivity. Qed.

Lemma in_frame_add f u x y : in_frame f u (fm_add x y) = fm_add (in_frame f u x) (in_frame f u y).
Proof.
  destruct f; [reflexivity| |]; unfold in_frame, fm_add, to_stab, to_wind; cbn [fst snd]; rewrite !mat3_add; reflexivity.
Qed.
Lemma comp_add x y k : comp (fm_add x y) k = comp x k + comp y k.
Proof. destruct k as [|[|[|[|[|[|k]]]]]]; reflexivity. Qed.

(* total = inviscid + viscous, for every key (frame x component x dimensional kind) *)
Lemma value_add r d f u x y k :
  value r d (in_frame f u (fm_add x y)) k = value r d (in_frame f u x) k + value r d (in_frame f u y) k.
Proof. unfold value. rewrite in_frame_add, comp_add. destruct d; [reflexivity | apply Rmult_plus_distr_r]. Qed.

Lemma value_zero r d f u k : value r d (in_frame f u (@fm_zero R _)) k = 0.
Proof.
  pose proof (value_add r d f u fm_zero fm_zero k) as H.
  replace (fm_add fm_zero fm_zero) with (@fm_zero R _) in H
    by (unfold fm_add, fm_zero; cbn [fst snd]; rewrite vadd_0_l; reflexivity).
  lra.
Qed.

(* [nondim] divides by 1/2 rho V^2 S and, for a moment component, by this length *)
Definition ref_len (r : refs R) (k : nat) : R :=
  match k with 0%nat | 1%nat | 2%nat => 1 | 4%nat => rlon r | _ => rlat r end.
Lemma nondim_inverse r k : rrho r * rVinf r * rVinf r * rS r <> 0 -> rlon r <> 0 -> rlat r <> 0 ->
  nondim r k * ((1/2) * rrho r * rVinf r * rVinf r * rS r * ref_len r k) = 1.
Proof.
  intros H1 H2 H3. replace ((1/2) * rrho r * rVinf r * rVinf r * rS r) with ((rrho r * rVinf r * rVinf r * rS r) / 2) by field.
  destruct k as [|[|[|[|[|k]]]]]; cbv [nondim ref_len ndiv nmul nofZ RNum];
    set (q := rrho r * rVinf r * rVinf r * rS r) in *; field; auto.
Qed.

Lemma ey_unit : vnorm2 (@ey R _) = 1. Proof. unfold ey. vec. Qed.

Section Triad.
  Variable a : v3 R.
  Hypotheses (Ha : vnorm2 a = 1) (Hay : vnorm2 (vcross a ey) <> 0).

  Lemma u_lift_unit : vnorm2 (u_lift a) = 1.
  Proof. exact (vnorm2_normalized _ Hay). Qed.
  Lemma u_lift_orth : vdot a (u_lift a) = 0.
  Proof. apply vdot_vunit_r, vdot_cross_l. Qed.
  Lemma u_lift_orth_y : vdot (u_lift a) ey = 0.
  Proof. rewrite vdot_comm. apply vdot_vunit_r, vdot_cross_r. Qed.
  Lemma side_unit : vnorm2 (vcross (u_lift a) a) = 1.
  Proof. apply vnorm2_cross_orth; [exact u_lift_unit | exact Ha | rewrite vdot_comm; exact u_lift_orth]. Qed.
  Lemma u_xstab_eq : u_xstab a = vcross (u_lift a) ey.
  Proof. apply vunit_unit, vnorm2_cross_orth; [exact u_lift_unit | exact ey_unit | exact u_lift_orth_y]. Qed.

  Lemma triad_orthonormal :
    vdot a a = 1 /\ vdot (u_lift a) (u_lift a) = 1 /\ vdot (u_side a) (u_side a) = 1 /\
    vdot a (u_lift a) = 0 /\ vdot a (u_side a) = 0 /\ vdot (u_lift a) (u_side a) = 0 /\
    vdot (u_lift a) ey = 0.
  Proof.
    unfold u_side. rewrite (vunit_unit _ side_unit). repeat split;
      [exact Ha | exact u_lift_unit | exact side_unit | exact u_lift_orth | apply vdot_cross_r | apply vdot_cross_l | exact u_lift_orth_y].
  Qed.
End Triad.

Section Freestream.
  Variables (u v w V m : R).
  Hypotheses (HV : 0 < V) (HV2 : V * V = u * u + v * v + w * w) (Hm : 0 < m) (Hm2 : m * m = u * u + w * w).
  (* (u,v,w) is the body-frame velocity of the aircraft relative to the air: the relative wind comes from ahead *)
  Definition uinf : v3 R := V3 (- u / V) (- v / V) (- w / V).

  Lemma uinf_unit : vnorm2 uinf = 1.
  Proof.
    change uinf with (vdivs (vopp (V3 u v w)) V). rewrite vnorm2_divs, vnorm2_opp.
    replace (vnorm2 (V3 u v w)) with (V * V) by (rewrite HV2; vec). apply Rinv_r, Rgt_not_eq, Rmult_lt_0_compat; exact HV.
  Qed.
  Lemma uinf_cross_y : vcross uinf ey = vscale (/ V) (V3 w 0 (- u)).
  Proof. unfold uinf, ey. vec. Qed.
  Lemma cross_y_norm2 : vnorm2 (V3 w 0 (- u)) = m * m.
  Proof. rewrite Hm2. vec. Qed.
  Lemma uinf_not_y : vnorm2 (vcross uinf ey) <> 0.
  Proof.
    rewrite uinf_cross_y, vnorm2_scale, cross_y_norm2.
    apply Rgt_not_eq; repeat apply Rmult_lt_0_compat; try apply Rinv_0_lt_compat; assumption.
  Qed.

  Lemma u_lift_eq : u_lift uinf = V3 (w / m) 0 (- u / m).
  Proof.
    unfold u_lift. rewrite uinf_cross_y, vunit_scale by (apply Rinv_0_lt_compat, HV).
    unfold vunit, vnorm. rewrite cross_y_norm2. rewrite sqrt_square by lra. vec.
  Qed.

  (* with alpha = atan2(w,u), the rotation by alpha about y: rows (cos a,0,sin a), (0,1,0), (-sin a,0,cos a) *)
  Lemma to_stab_eq x : to_stab uinf x = V3 ((u * vx x + w * vz x) / m) (vy x) ((- w * vx x + u * vz x) / m).
  Proof. unfold to_stab. rewrite (u_xstab_eq uinf uinf_not_y), u_lift_eq. unfold mat3, ey. vec. Qed.
End Freestream.
