(* Kuchemann's lifting-line offset (C12): it depends on the sweep only through its magnitude, so the two halves of a wing - whose internal
   sweep angles are opposite - carry the same offset station by station; scaling semispan and chords by the same factor leaves every
   offset unchanged (C05). *)
From Coq Require Import Reals List Psatz.
From MuxV Require Import Base.RInst Model.Kuchemann.
Import ListNotations.
Local Open Scope R_scope.

(* Coq's division is total, x / 0 = 0: the guard against a vanishing chord returns what the quotient is anyway, and
   a common factor cancels also where c = 0 *)
Lemma guard_quot z c : (if Reqb c 0 then 0 else z / c) = z / c.
Proof. destruct (Reqb_spec c 0) as [->|]; [unfold Rdiv; rewrite Rinv_0, Rmult_0_r | ]; reflexivity. Qed.
Lemma quot_scale k z c : k <> 0 -> k * z / (k * c) = z / c.
Proof. intro Hk. unfold Rdiv. rewrite Rinv_mult. generalize (/ c). intro ic. field. exact Hk. Qed.

Section Offset.
  Variables (fcos ftan : R -> R) (fpow : R -> R -> R) (pi : R).
  Notation off := (offset_at fcos ftan fpow pi).
  Notation seff := (sweep_eff fcos fpow pi).

  Theorem offset_sweep_sign CLa RA sw b loc c : off CLa RA (- sw) b loc c = off CLa RA sw b loc c.
  Proof. unfold offset_at, sweep_eff. rewrite Rabs_Ropp. reflexivity. Qed.

  Theorem offsets_sweep_sign CLa RA sw b nodes :
    offsets fcos ftan fpow pi CLa RA (- sw) b nodes = offsets fcos ftan fpow pi CLa RA sw b nodes.
  Proof. unfold offsets. apply map_ext. intros p. apply offset_sweep_sign. Qed.

  Definition mid_value CLa RA sw : R :=
    let se := sweep_eff fcos fpow pi CLa RA sw in - (1 / 4 * (1 - 1 / kfac fcos fpow pi CLa RA se)).

  (* affine in the difference of the interpolation weights towards the centre and towards the tip *)
  Lemma offset_form CLa RA sw b loc c :
    off CLa RA sw b loc c =
    mid_value CLa RA sw + 1 / 4 * (1 / kfac fcos fpow pi CLa RA (seff CLa RA sw)) * (2 * seff CLa RA sw / pi) *
      (lam pi (sweep_div ftan (seff CLa RA sw)) (loc * b / c) - lam pi (sweep_div ftan (seff CLa RA sw)) ((b - loc * b) / c)).
  Proof. unfold offset_at, mid_value, quarter. rnum. rewrite !guard_quot. unfold Rdiv. ring. Qed.

  Theorem offset_mid CLa RA sw b loc c : loc * b = b - loc * b -> off CLa RA sw b loc c = mid_value CLa RA sw.
  Proof. intro H. rewrite offset_form, <- H, Rminus_eq_0, Rmult_0_r. apply Rplus_0_r. Qed.

  Theorem offset_antisymmetric CLa RA sw b loc c :
    off CLa RA sw b loc c + off CLa RA sw b (1 - loc) c = 2 * mid_value CLa RA sw.
  Proof.
    rewrite !offset_form. replace ((1 - loc) * b) with (b - loc * b) by ring. replace (b - (b - loc * b)) with (loc * b) by ring. ring.
  Qed.

  (* "area" in the code is the integral of the chord over the span fraction, i.e. the mean chord: it scales as the chords do *)
  Theorem aspect_scale k b area : k <> 0 -> aspect (k * b) (k * area) = aspect b area.
  Proof. intro Hk. unfold aspect. rnum. replace (2 * (k * b)) with (k * (2 * b)) by ring. apply quot_scale, Hk. Qed.
  Theorem offset_scale k CLa RA sw b loc c : k <> 0 -> off CLa RA sw (k * b) loc (k * c) = off CLa RA sw b loc c.
  Proof.
    intro Hk. rewrite !offset_form.
    replace (loc * (k * b)) with (k * (loc * b)) by ring. replace (k * b - k * (loc * b)) with (k * (b - loc * b)) by ring.
    rewrite !quot_scale by exact Hk. reflexivity.
  Qed.
End Offset.

Theorem lam_bounds pi sd x : 0 <= 2 * pi * sd * x -> 0 < lam pi sd x <= 1.
Proof.
  intros Ht. unfold lam. rnum. set (t := 2 * pi * sd * x) in *.
  assert (H1 : t < sqrt (1 + t * t)).
  { rewrite <- (sqrt_square t) at 1 by exact Ht. apply sqrt_lt_1_alt. nra. }
  assert (H2 : sqrt (1 + t * t) <= 1 + t).
  { rewrite <- (sqrt_square (1 + t)) by lra. apply sqrt_le_1_alt. nra. }
  lra.
Qed.
