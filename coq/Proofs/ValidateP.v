(* The validation procedure accepts exactly the descriptions that satisfy the documented constraints (C19). *)
From Coq Require Import ZArith List Bool String Lia.
From MuxV Require Import Model.Validate.
Import ListNotations.
Open Scope list_scope.

Lemma existsb_eqb {A} (eqb : A -> A -> bool) (eqb_eq : forall x y, eqb x y = true <-> x = y) s l :
  existsb (eqb s) l = true <-> In s l.
Proof.
  rewrite existsb_exists. split.
  - intros [x [Hx He]]. apply eqb_eq in He. subst. exact Hx.
  - intro H. exists s. split; [exact H | apply eqb_eq; reflexivity].
Qed.
Lemma existsb_str s l : existsb (String.eqb s) l = true <-> In s l.
Proof. apply existsb_eqb, String.eqb_eq. Qed.

Lemma forallb_iff {A} (f : A -> bool) (P : A -> Prop) l :
  (forall x, f x = true <-> P x) -> (forallb f l = true <-> forall x, In x l -> P x).
Proof. intro H. rewrite forallb_forall. split; intros Hl x Hx; apply H, Hl, Hx. Qed.

Lemma iff_given_refl {A} (x : A) (P : Prop) : P <-> (x = x -> P).
Proof. split; [intros H _; exact H | intro H; exact (H eq_refl)]. Qed.

Section Documented.
  Variable unit_known : string -> bool.

  Definition GridDoc (g : gridspec) (n : nat) : Prop :=
    match g with
    | GCosine | GLinear => True
    | GOther => False
    | GList l => List.length l = 2 * n + 1 /\ nth 0 l 1%Z = 0%Z /\ last l 0%Z = 1000%Z
                 /\ (forall i j, (i < j < List.length l)%nat -> (nth i l 0 < nth j l 0)%Z)
    end.
  Definition FlapDoc (c : option csurf) : Prop :=
    match c with
    | Some c' => match cs_chord_ends c' with Some (a, b) => a = cs_root c' /\ b = cs_tip c' | None => True end
    | None => True
    end.
  Definition SegDoc (defined : list string) (ids : list Z) (sg : segment) : Prop :=
    s_id sg <> 0%Z
    /\ (s_side sg = "left" \/ s_side sg = "right" \/ s_side sg = "both")
    /\ (s_semispan sg = negb (s_qc sg))
    /\ (s_qc sg = true -> s_dihedral sg = false /\ s_sweep sg = false)
    /\ (forall a, In a (s_airfoils sg) -> In a defined)
    /\ GridDoc (s_grid sg) (s_N sg)
    /\ (s_parent sg = 0%Z \/ In (s_parent sg) ids)
    /\ FlapDoc (s_cs sg)
    /\ (forall u, In u (s_units sg) -> unit_known u = true).
  Definition StateDoc (st : state) : Prop :=
    st_velocity st <> VMissing
    /\ (st_velocity st = VVector -> st_alpha st = false /\ st_beta st = false)
    /\ (st_rate_frame st = "body" \/ st_rate_frame st = "stab" \/ st_rate_frame st = "wind")
    /\ (forall u, In u (st_units st) -> unit_known u = true).
  Definition AircraftDoc (a : aircraft) : Prop :=
    a_weight a = true
    /\ List.Forall (SegDoc (a_airfoils a) (map s_id (a_segments a))) (a_segments a)
    /\ ((exists sg, In sg (a_segments a) /\ s_main sg = true) \/ (a_ref_area a = true /\ a_ref_lat a = true))
    /\ StateDoc (a_state a).
  Definition SceneDoc (sc : scene) : Prop :=
    (sc_units sc = "English" \/ sc_units sc = "SI")
    /\ (sc_solver sc = "linear" \/ sc_solver sc = "nonlinear" \/ sc_solver sc = "scipy_fsolve")
    /\ (forall p, In p (sc_profiles sc) -> p = "standard")
    /\ List.Forall AircraftDoc (sc_aircraft sc).

  (* An error list is a concatenation of pieces, the documentation a conjunction of constraints: "no error <-> documented" is
     proved piece by constraint and put together by the lemmas [ok_*], so that no step sees more than one constraint. *)
  Lemma ok_when b e P : (b = false <-> P) -> (when b e = [] <-> P).
  Proof. intros <-. destruct b; split; (reflexivity || discriminate). Qed.
  Lemma ok_unless b e P : (b = true <-> P) -> (when (negb b) e = [] <-> P).
  Proof. intros <-. destruct b; split; (reflexivity || discriminate). Qed.
  Lemma ok_app (a b : list err) P Q : (a = [] <-> P) -> (b = [] <-> Q) -> (a ++ b = [] <-> P /\ Q).
  Proof. intros <- <-. split; [apply app_eq_nil | intros [-> ->]; reflexivity]. Qed.
  Lemma ok_flat_map {A} (f : A -> list err) (D : A -> Prop) l : (forall x, f x = [] <-> D x) -> (flat_map f l = [] <-> List.Forall D l).
  Proof.
    intro H. induction l as [|x l IH].
    - split; [constructor | reflexivity].
    - rewrite Forall_cons_iff. apply ok_app; [apply H | exact IH].
  Qed.
  (* checks made one after the other, the first failure reported *)
  Lemma ok_guard b (e : err) r P Q : (b = true <-> P) -> (r = [] <-> Q) -> ((if negb b then [e] else r) = [] <-> P /\ Q).
  Proof. intros <- <-. destruct b; split; [auto | intros [_ H]; exact H | discriminate | intros [H _]; discriminate]. Qed.

  Lemma or2_str s a b : (String.eqb s a || String.eqb s b) = true <-> s = a \/ s = b.
  Proof. rewrite orb_true_iff, !String.eqb_eq. reflexivity. Qed.
  Lemma or3_str s a b c : (String.eqb s a || String.eqb s b || String.eqb s c) = true <-> s = a \/ s = b \/ s = c.
  Proof. rewrite orb_true_iff, or2_str, String.eqb_eq. apply or_assoc. Qed.

  Lemma increasing_spec l : increasing l = true <-> (forall i j, (i < j < List.length l)%nat -> (nth i l 0 < nth j l 0)%Z).
  Proof.
    induction l as [|a [|b r] IH]; [split; [cbn; lia | reflexivity] ..|].
    change (increasing (a :: b :: r)) with ((a <? b)%Z && increasing (b :: r)). rewrite andb_true_iff, Z.ltb_lt, IH. split.
    - intros [Hab Hr] [|i] [|j] Hij; try lia; [|apply Hr; cbn [List.length] in *; lia].
      (* the head is below its neighbour, which is below everything after it *)
      destruct j; [exact Hab | apply (Z.lt_trans _ b); [exact Hab | apply (Hr 0%nat (S j)); cbn [List.length] in *; lia]].
    - intro H. split; [apply (H 0%nat 1%nat); cbn; lia | intros i j Hij; apply (H (S i) (S j)); cbn [List.length] in *; lia].
  Qed.
  Lemma grid_ends l : ((hd 1 l =? 0) && (last l 0 =? 1000))%Z = true <-> nth 0 l 1%Z = 0%Z /\ last l 0%Z = 1000%Z.
  Proof. rewrite andb_true_iff, !Z.eqb_eq. destruct l; reflexivity. Qed.

  Lemma grid_ok g n : grid_errs g n = [] <-> GridDoc g n.
  Proof.
    destruct g as [| |l|]; [easy | easy | | easy].
    apply ok_guard; [apply Nat.eqb_eq|]. rewrite <- and_assoc. apply ok_guard; [apply grid_ends|].
    apply (ok_unless (increasing l) EGridMono), increasing_spec.
  Qed.

  Lemma cs_ok c : cs_errs c = [] <-> FlapDoc c.
  Proof.
    destruct c as [[r t [[a b]|]]|]; cbn [cs_errs FlapDoc cs_chord_ends cs_root cs_tip]; [|easy|easy].
    apply ok_unless. rewrite andb_true_iff, !Z.eqb_eq. reflexivity.
  Qed.

  Lemma one_span ss qc e e' : when (negb ss && negb qc) e ++ when (ss && qc) e' = [] <-> ss = negb qc.
  Proof. destruct ss, qc; split; (reflexivity || discriminate). Qed.
  Lemma no_angles_with_qc d sw qc e e' : when (d && qc) e ++ when (sw && qc) e' = [] <-> (qc = true -> d = false /\ sw = false).
  Proof.
    destruct qc; [rewrite !andb_true_r | rewrite !andb_false_r; easy].
    etransitivity; [apply ok_app; apply ok_when; reflexivity | apply iff_given_refl].
  Qed.
  Lemma parent_ok p ids : ((p =? 0)%Z || existsb (Z.eqb p) ids) = true <-> p = 0%Z \/ In p ids.
  Proof. rewrite orb_true_iff, Z.eqb_eq, (existsb_eqb Z.eqb Z.eqb_eq). reflexivity. Qed.

  Lemma segment_ok defined ids sg : segment_errs unit_known defined ids sg = [] <-> SegDoc defined ids sg.
  Proof.
    unfold segment_errs, SegDoc.
    apply ok_app; [apply ok_when, Z.eqb_neq|].
    apply ok_app; [apply ok_unless, or3_str|].
    (* twice, two pieces that the documentation states as one constraint *)
    rewrite app_assoc. apply ok_app; [apply one_span|].
    rewrite app_assoc. apply ok_app; [apply no_angles_with_qc|].
    apply ok_app; [apply ok_unless, forallb_iff; intro a; apply existsb_str|].
    apply ok_app; [apply grid_ok|].
    apply ok_app; [apply ok_unless, parent_ok|].
    apply ok_app; [apply cs_ok|].
    apply ok_unless, forallb_forall.
  Qed.

  Lemma velocity_given v : match v with VMissing => true | _ => false end = false <-> v <> VMissing.
  Proof. destruct v; split; congruence. Qed.
  Lemma vector_excludes_angles v al be :
    match v with VVector => al || be | _ => false end = false <-> (v = VVector -> al = false /\ be = false).
  Proof. destruct v; [easy | easy |]. rewrite orb_false_iff. apply iff_given_refl. Qed.

  Lemma state_ok st : state_errs unit_known st = [] <-> StateDoc st.
  Proof.
    unfold state_errs, StateDoc.
    apply ok_app; [apply ok_when, velocity_given|].
    apply ok_app; [apply ok_when, vector_excludes_angles|].
    apply ok_app; [apply ok_unless, or3_str|].
    apply ok_unless, forallb_forall.
  Qed.

  Lemma aircraft_ok a : aircraft_errs unit_known a = [] <-> AircraftDoc a.
  Proof.
    unfold aircraft_errs, AircraftDoc.
    apply ok_app; [apply ok_unless; reflexivity|].
    apply ok_app; [apply ok_flat_map, segment_ok|].
    apply ok_app; [|apply state_ok].
    rewrite <- negb_orb. apply ok_unless. rewrite orb_true_iff, existsb_exists, andb_true_iff. reflexivity.
  Qed.

  Theorem scene_ok sc : scene_errs unit_known sc = [] <-> SceneDoc sc.
  Proof.
    unfold scene_errs, SceneDoc.
    apply ok_app; [apply ok_unless, or2_str|].
    apply ok_app; [apply ok_unless, or3_str|].
    apply ok_app; [apply ok_unless, forallb_iff; intro p; apply String.eqb_eq|].
    apply ok_flat_map, aircraft_ok.
  Qed.

  Theorem loads_only_if_documented sc : load_and_solve unit_known sc = Loads <-> (SceneDoc sc /\ sc_aircraft sc <> []).
  Proof.
    unfold load_and_solve. rewrite <- scene_ok.
    destruct (scene_errs unit_known sc), (sc_aircraft sc); split; (easy || intros [? ?]; easy).
  Qed.
  Corollary violating_input_raises sc : ~ SceneDoc sc -> load_and_solve unit_known sc = Raises.
  Proof.
    destruct (load_and_solve unit_known sc) eqn:E; [|reflexivity].
    apply loads_only_if_documented in E. tauto.
  Qed.
  Corollary empty_scene_raises sc : sc_aircraft sc = [] -> load_and_solve unit_known sc = Raises.
  Proof. unfold load_and_solve. intros ->. destruct (scene_errs unit_known sc); reflexivity. Qed.
End Documented.

Lemma resolve_acts names g n : resolve_name names g = Acts n -> In n names.
Proof.
  unfold resolve_name. destruct g as [m|].
  - destruct (existsb (String.eqb m) names) eqn:E; [|discriminate]. intros [= <-]. apply existsb_str, E.
  - destruct names as [|a [|b r]]; try discriminate. intros [= <-]. left; reflexivity.
Qed.
Lemma resolve_unknown names m : ~ In m names -> resolve_name names (Some m) = CallRaises.
Proof. rewrite <- existsb_str. unfold resolve_name. destruct (existsb (String.eqb m) names); easy. Qed.
Lemma resolve_unnamed_several a b r : resolve_name (a :: b :: r) None = CallRaises.
Proof. reflexivity. Qed.
Lemma resolve_unnamed_empty : resolve_name [] None = CallRaises.
Proof. reflexivity. Qed.
Lemma trim_control_spec controls p : trim_control_ok controls p = true <-> In p controls.
Proof. apply existsb_str. Qed.

Lemma prefix_app ext s : String.prefix ext s = true <-> exists b, s = (ext ++ b)%string.
Proof.
  revert s. induction ext as [|c ext IH].
  - split; [intros _; exists s; reflexivity | intros _; destruct s; reflexivity].
  - destruct s as [|d s]; simpl.
    + split; [discriminate | intros [b Hb]; discriminate].
    + destruct (Ascii.ascii_dec c d) as [->|Hne].
      * rewrite IH. split; intros [b Hb]; exists b; [rewrite Hb; reflexivity | inversion Hb; reflexivity].
      * split; [discriminate | intros [b Hb]; inversion Hb; congruence].
Qed.
(* [ends_with] and [extension_ok] both try a test on every suffix of the name *)
Lemma some_suffix (test f : string -> bool) :
  (forall s, f s = test s || match s with EmptyString => false | String _ r => f r end) ->
  forall s, f s = true <-> exists a t, s = (a ++ t)%string /\ test t = true.
Proof.
  intros Hf s. induction s as [|c s IH]; rewrite Hf, orb_true_iff; [|rewrite IH]; split.
  - intros [H|H]; [exists EmptyString, EmptyString; easy | discriminate].
  - intros [[|] [t [E H]]]; [cbn in E; subst t; left; exact H | discriminate].
  - intros [H|[a [t [-> H]]]]; [exists EmptyString, (String c s); easy | exists (String c a), t; easy].
  - intros [[|d a] [t [E H]]]; cbn in E; [subst t; left; exact H | injection E as _ ->; right; exists a, t; easy].
Qed.
Lemma ends_with_spec ext f : ends_with ext f = true <-> exists a, f = (a ++ ext)%string.
Proof.
  rewrite (some_suffix (String.eqb ext) (ends_with ext)) by (intros []; reflexivity). split.
  - intros [a [t [-> H]]]. apply String.eqb_eq in H. subst t. exists a. reflexivity.
  - intros [a ->]. exists a, ext. split; [reflexivity | apply String.eqb_refl].
Qed.
Lemma extension_spec ext f : extension_ok ext f = true <-> exists a b, f = (a ++ ext ++ b)%string.
Proof.
  rewrite (some_suffix (String.prefix ext) (extension_ok ext)) by (intros []; reflexivity). split.
  - intros [a [t [-> H]]]. apply prefix_app in H. destruct H as [b ->]. exists a, b. reflexivity.
  - intros [a [b ->]]. exists a, (ext ++ b)%string. split; [reflexivity | apply prefix_app; exists b; reflexivity].
Qed.
