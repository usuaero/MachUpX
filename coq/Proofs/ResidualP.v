(* The Newton loop of C01: how it can end and that it ends by iteration max_iter, whatever the section model and the linear solver. *)
From Coq Require Import Reals Lia.
From MuxV Require Import Base.Vec3 Base.RInst Model.Residual.
Local Open Scope R_scope.

Section NewtonP.
  Variables (fatan2 : R -> R -> R) (O : opts) (solve : list (list R) -> list R -> list R).
  Variables (conv relax : R) (max_iter : nat).
  Variables (cs : list (cpt R)) (Ss : list (section R)) (Vm : list (list (v3 R))).
  Notation res := (residual fatan2 O cs Ss Vm).
  Notation upd := (newton_update fatan2 O solve relax cs Ss Vm).
  Notation newt fuel iter err g := (newton fatan2 O solve conv relax max_iter fuel iter err cs Ss Vm g).

  Lemma newton_unfold fuel iter err g :
    newt fuel iter err g =
    if Rltb conv err then
      match fuel with
      | 0%nat => NotConverged g iter
      | S f => if Nat.leb max_iter (S iter) then NotConverged (upd g) (S iter)
               else newt f (S iter) (norm2 (res g)) (upd g)
      end
    else Converged g iter.
  Proof. destruct fuel; reflexivity. Qed.

  (* Every way out of the loop at once, read off a result (which exit a given start takes is computed with [newton_unfold]).  The
     solver calls it with iter + fuel = max_iter, and the loop keeps that: it never runs out of fuel early, and a non-converged exit
     happens exactly at iteration max_iter. *)
  Lemma newton_result fuel iter err g r : newt fuel iter err g = r ->
    match r with
    | Converged g' k =>
        (err <= conv /\ g' = g /\ k = iter) \/
        (exists g0, norm2 (res g0) <= conv /\ g' = upd g0 /\ (iter < k)%nat /\ (k < max_iter)%nat)
    | NotConverged _ k => (iter + fuel = max_iter)%nat -> k = max_iter
    end.
  Proof.
    intros <-. revert iter err g. induction fuel as [|f IH]; intros iter err g; rewrite newton_unfold;
      (destruct (Rltb conv err) eqn:E; [|left; apply Rltb_false in E; auto]).
    - lia.
    - destruct (Nat.leb_spec max_iter (S iter)) as [Em|Em]; [lia|].
      specialize (IH (S iter) (norm2 (res g)) (upd g)). destruct (newton _ _ _ _ _ _ f _ _ _ _ _ _) as [g' k|g' k]; [|lia].
      right. destruct IH as [(H1 & H2 & H3)|(g0 & H1 & H2 & H3 & H4)]; [exists g | exists g0]; repeat split; auto; lia.
  Qed.

  Corollary newton_cap fuel iter err g g' k :
    (iter + fuel = max_iter)%nat -> newt fuel iter err g = NotConverged g' k -> k = max_iter.
  Proof. intros Hf H. apply newton_result in H. exact (H Hf). Qed.

  Theorem newton_iterations_bounded fuel : forall iter err g g' k,
    (iter <= max_iter)%nat -> newt fuel iter err g = Converged g' k -> (k <= max_iter)%nat.
  Proof. intros iter err g g' k Hi H. apply newton_result in H as [(_ & _ & ->)|(_ & _ & _ & _ & Hk)]; lia. Qed.
End NewtonP.
