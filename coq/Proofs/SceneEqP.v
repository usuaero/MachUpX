(* The residual vector of a whole scene under a similarity map (ResidualEqP row by row).  The mapped influence matrix is taken to be
   [map (map TV) Vm]: for a rotation or a scaling that is [KernelP.vji_sim]; for the reflection, where [vji_sim] gives the factor
   sigma / k = -1, the re-orientation of the mirrored horseshoes ([KernelP.vji_swap]) gives another -1 (Props/C04.v). *)
From Coq Require Import Reals List.
From MuxV Require Import Base.Vec3 Base.RInst Model.Helpers Model.Kernel Model.Residual Proofs.HelpersP Proofs.ResidualEqP.
Import ListNotations.
Local Open Scope R_scope.

Section Whole.
  Variable O : v3 R -> v3 R.
  Hypothesis O_add : forall a b, O (vadd a b) = vadd (O a) (O b).
  Hypothesis O_scale : forall k a, O (vscale k a) = vscale k (O a).
  Hypothesis O_dot : forall a b, vdot (O a) (O b) = vdot a b.
  Variable sigma : R.
  Hypothesis sigma_sq : sigma * sigma = 1.
  Hypothesis O_cross : forall a b, vcross (O a) (O b) = vscale sigma (O (vcross a b)).
  Variable k : R.
  Hypothesis kpos : 0 < k.
  Variable fatan2 : R -> R -> R.
  Variable opt : opts.
  Notation Tc := (Tc O sigma k).
  Notation TV := (TV O k).

  Lemma residual_from_sim cs : forall Ss Vm g gs, (k = 1 \/ Forall (re_independent) Ss) ->
    residual_from fatan2 opt (map Tc cs) Ss (map (map TV) Vm) (map (Rmult k) g) (map (Rmult k) gs) =
    map (Rmult (k * k)) (residual_from fatan2 opt cs Ss Vm g gs).
  Proof.
    induction cs as [|c cs IH]; intros [|S Ss] [|Vr Vm] g [|gi gs] Hs; try reflexivity.
    cbn [map residual_from]. f_equal.
    - apply (residual_at_sim O O_add O_scale O_dot sigma sigma_sq O_cross k kpos fatan2 opt).
      destruct Hs as [Hk|Hf]; [left; exact Hk | right; exact (Forall_inv Hf)].
    - apply IH. destruct Hs as [Hk|Hf]; [left; exact Hk | right; exact (Forall_inv_tail Hf)].
  Qed.

  Theorem residual_sim cs Ss Vm g : (k = 1 \/ Forall (re_independent) Ss) ->
    residual fatan2 opt (map Tc cs) Ss (map (map TV) Vm) (map (Rmult k) g) = map (Rmult (k * k)) (residual fatan2 opt cs Ss Vm g).
  Proof. intros. unfold residual. apply residual_from_sim; assumption. Qed.

  Corollary roots_correspond cs Ss Vm g : (k = 1 \/ Forall (re_independent) Ss) ->
    Forall (fun r => r = 0) (residual fatan2 opt cs Ss Vm g) ->
    Forall (fun r => r = 0) (residual fatan2 opt (map Tc cs) Ss (map (map TV) Vm) (map (Rmult k) g)).
  Proof.
    intros Hs H. rewrite residual_sim, Forall_map by assumption. revert H. apply Forall_impl. intros r ->. apply Rmult_0_r.
  Qed.
End Whole.

Lemma map_Rmult_1 (l : list R) : map (Rmult 1) l = l.
Proof. rewrite <- (map_id l) at 2. apply map_ext, Rmult_1_l. Qed.

Definition idO (v : v3 R) : v3 R := v.

