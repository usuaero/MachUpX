(* The derivative analyses and aero_center (Model/Analyses.v) in closed form: once the aerodynamic-angle encoding round-trips on the
   states visited, every state an analysis passes through is the base state with its relative velocity re-decoded from explicit
   (alpha, beta, V); that the state comes back and which states are differenced are read off from that. *)
From Coq Require Import Reals Lra List.
From MuxV Require Import Base.Num Base.Vec3 Base.RInst Model.Helpers Model.AeroState Model.Analyses Model.Restore Proofs.HelpersP.
Import ListNotations.
Local Open Scope R_scope.

(* an optional argument of set_aerodynamic_state, with the current value for its default *)
Definition or_else (o : option R) (x : R) : R := match o with Some y => y | None => x end.

Lemma set_nth_nth (l : list R) i : (i < length l)%nat -> set_nth l i (nth i l 0) = l.
Proof.
  revert i; induction l as [|x r IH]; intros i Hi; [reflexivity|]. destruct i; cbn; [reflexivity|].
  f_equal. apply IH. apply PeanoNat.Nat.succ_lt_mono; assumption.
Qed.

Section RoundTrip.
  Variables (fcos fsin ftan fatan fasin : R -> R) (fatan2 : R -> R -> R) (d2r r2d : R).
  Variable W : v3 R.
  Variable F : ast R -> list R.

  Definition enc (vb : v3 R) : R * R * R :=
    (degrees r2d (fatan2 (vz vb) (vx vb)), degrees r2d (fasin (vy vb / sqrt (vx vb * vx vb + vy vb * vy vb + vz vb * vz vb))),
     sqrt (vx vb * vx vb + vy vb * vy vb + vz vb * vz vb)).
  Definition dec (a b V : R) : v3 R := body_velocity fcos fsin ftan fatan d2r a b V.

  Variable okA : R -> R -> R -> Prop.
  Variable okB : v3 R -> Prop.
  Hypothesis HA : forall a b V, okA a b V -> enc (dec a b V) = (a, b, V).
  Hypothesis HB : forall vb, okB vb -> let '(a, b, V) := enc vb in dec a b V = vb.

  Notation get_ae := (get_ae fasin fatan2 r2d W).
  Notation set_ae := (set_ae fcos fsin ftan fatan fasin fatan2 d2r r2d W).

  Definition vbody (s : ast R) : v3 R := quat_trans (s_q s) (vsub (s_v s) W).

  Lemma get_ae_enc s : get_ae s = enc (vbody s).
  Proof. reflexivity. Qed.
  Lemma set_ae_q s a b V : s_q (set_ae s a b V) = s_q s. Proof. reflexivity. Qed.

  Definition with_ae (s : ast R) (a b V : R) : ast R :=
    mk_ast (vadd W (quat_inv_trans (s_q s) (dec a b V))) (s_w s) (s_p s) (s_q s) (s_c s).

  Lemma set_ae_with s a b V a0 b0 V0 : get_ae s = (a0, b0, V0) ->
    set_ae s a b V = with_ae s (or_else a a0) (or_else b b0) (or_else V V0).
  Proof. unfold Analyses.get_ae, Analyses.set_ae, set_aero_state. intros ->. reflexivity. Qed.
  Lemma set_ae_all s a b V : set_ae s (Some a) (Some b) (Some V) = with_ae s a b V.
  Proof. destruct (get_ae s) as [[a0 b0] V0] eqn:E. exact (set_ae_with s (Some a) (Some b) (Some V) a0 b0 V0 E). Qed.

  Section Unit.
    Variable s : ast R.
    Hypothesis Hq : qn2 (s_q s) = 1.

    Lemma vbody_with_ae a b V : vbody (with_ae s a b V) = dec a b V.
    Proof. unfold vbody, with_ae. cbn [s_q s_v]. rewrite vsub_add_cancel. apply trans_inv_trans_unit, Hq. Qed.
    Lemma get_with_ae a b V : okA a b V -> get_ae (with_ae s a b V) = (a, b, V).
    Proof. intro H. rewrite get_ae_enc, vbody_with_ae. apply HA, H. Qed.
    Lemma set_ae_with_ae a0 b0 V0 a b V : okA a0 b0 V0 ->
      set_ae (with_ae s a0 b0 V0) a b V = with_ae s (or_else a a0) (or_else b b0) (or_else V V0).
    Proof. intro H. exact (set_ae_with _ a b V a0 b0 V0 (get_with_ae a0 b0 V0 H)). Qed.
    Lemma with_ae_id a b V : get_ae s = (a, b, V) -> okB (vbody s) -> with_ae s a b V = s.
    Proof.
      intros E Hok. pose proof (HB (vbody s) Hok) as H. rewrite get_ae_enc in E. rewrite E in H.
      unfold with_ae. rewrite H. unfold vbody. rewrite inv_trans_trans_unit, vadd_sub_cancel by exact Hq. destruct s; reflexivity.
    Qed.

    (* stability_derivatives (scene.py 1952-2030) *)
    Theorem stability_eq dth a0 b0 V0 : get_ae s = (a0, b0, V0) ->
      okA (a0 + dth) b0 V0 -> okA (a0 - dth) b0 V0 -> okA a0 (b0 + dth) V0 -> okA a0 (b0 - dth) V0 ->
      stability fcos fsin ftan fatan fasin fatan2 d2r r2d W F s dth =
        (cdiff (1 / (2 * (dth * d2r))) (F (with_ae s (a0 + dth) b0 V0)) (F (with_ae s (a0 - dth) b0 V0)),
         cdiff (1 / (2 * (dth * d2r))) (F (with_ae s a0 (b0 + dth) V0)) (F (with_ae s a0 (b0 - dth) V0)),
         with_ae s a0 b0 V0).
    Proof.
      intros E H1 H2 H3 H4. unfold stability. rewrite E, (set_ae_with s _ _ _ _ _ _ E).
      rewrite !set_ae_with_ae by assumption. reflexivity.
    Qed.
  End Unit.

  (* aero_center (scene.py 3013-3063) names all three values at every step, so no round trip is involved *)
  Theorem aero_center_eq s delta a0 b0 V0 : get_ae s = (a0, b0, V0) ->
    aero_center fcos fsin ftan fatan fasin fatan2 d2r r2d W F s delta =
      (ac_point (F (with_ae s (a0 - delta) b0 V0)) (F s) (F (with_ae s (a0 + delta) b0 V0)) delta, with_ae s a0 b0 V0).
  Proof. intros E. unfold aero_center. rewrite E. reflexivity. Qed.

  Theorem damping_restores s dw pp qq rr lat lon :
    snd (damping fasin fatan2 r2d W F s dw pp qq rr lat lon) = s.
  Proof. unfold damping. destruct (get_ae s) as [[a b] V]. destruct s; reflexivity. Qed.

  Theorem control_deriv_restores s i dth : (i < length (s_c s))%nat -> snd (control_deriv d2r F s i dth) = s.
  Proof. intros Hi. destruct s as [v w p q c]. cbv [control_deriv set_c snd s_v s_w s_p s_q s_c]. f_equal. apply set_nth_nth, Hi. Qed.
End RoundTrip.

(* state_derivatives (C09, C08): which states each entry of the table is a difference between *)
Lemma vbump_twice (v : v3 R) i d : vbump (vbump v i d) i (- (2 * d)) = vbump v i (- d).
Proof. destruct v as [x y z]. destruct i as [|[|i]]; cbv [vbump]; vec. Qed.
Lemma vbump_add (v : v3 R) i d : vbump v i d = vadd v (vbump (V3 0 0 0) i d).
Proof. destruct v as [x y z]. destruct i as [|[|i]]; cbv [vbump vadd vx vy vz]; rewrite ?Rplus_0_l, ?Rplus_0_r; reflexivity. Qed.

(* the backward state, reached from the forward one as (x + d) - 2 d, is the state of a step by -d *)
Lemma sd_args_b_neg (s : ast R) var i d : sd_args_b s var i d = sd_args s var i (- d).
Proof. destruct var; unfold sd_args_b; rewrite vbump_twice; reflexivity. Qed.
Lemma sd_row_eq F (s : ast R) var i d :
  sd_row F s var i d = cdiff (1 / 2 / d) (F (sd_state s var i d)) (F (sd_state s var i (- d))).
Proof. unfold sd_row. rewrite sd_args_b_neg. reflexivity. Qed.

Section StateDerivs.
  Variable s : ast R.
  Hypothesis Hq : qn2 (s_q s) = 1.

  Lemma from_body_trans p w c : from_body p (quat_trans (s_q s) (s_v s)) (s_q s) w c = mk_ast (s_v s) w p (s_q s) c.
  Proof. unfold from_body. rewrite inv_trans_trans_unit by exact Hq. reflexivity. Qed.

  Lemma sd_pos i d : sd_state s SPos i d = mk_ast (s_v s) (s_w s) (vbump (s_p s) i d) (s_q s) (s_c s).
  Proof. apply from_body_trans. Qed.
  Lemma sd_rate i d : sd_state s SRate i d = mk_ast (s_v s) (vbump (s_w s) i d) (s_p s) (s_q s) (s_c s).
  Proof. apply from_body_trans. Qed.
  Lemma sd_vel i d :
    sd_state s SVel i d = mk_ast (vadd (s_v s) (quat_inv_trans (s_q s) (vbump (V3 0 0 0) i d))) (s_w s) (s_p s) (s_q s) (s_c s).
  Proof.
    unfold sd_state, sd_args, of_args, from_body. rewrite vbump_add, inv_trans_add, inv_trans_trans_unit by exact Hq. reflexivity.
  Qed.

  Lemma dq_unit i e : qn2 (dq_of i e) = 1.
  Proof.
    unfold dq_of. apply normalize_unit. destruct i as [|[|i]]; cbn;
      match goal with |- ?x <> 0 => assert (0 < x) by nra; lra end.
  Qed.
  (* an attitude step turns the body-fixed velocity along with the attitude, so the Earth-fixed velocity stays *)
  Lemma turn_keeps_velocity dq : qn2 dq = 1 ->
    quat_inv_trans (quat_mult (s_q s) dq) (quat_trans dq (quat_trans (s_q s) (s_v s))) = s_v s.
  Proof. intro H. rewrite inv_trans_mult, (inv_trans_trans_unit dq), inv_trans_trans_unit by assumption. reflexivity. Qed.
  Lemma sd_quat i e b : sd_state_q s i e b =
    mk_ast (s_v s) (s_w s) (s_p s) (quat_mult (s_q s) (if b then dq_of i e else quat_conj (dq_of i e))) (s_c s).
  Proof.
    unfold sd_state_q, sd_args_q, of_args, from_body. destruct b; [|rewrite <- (conj_trans (dq_of i e))];
      rewrite turn_keeps_velocity by (rewrite ?conj_norm2; apply dq_unit); reflexivity.
  Qed.
  Lemma sd_quat_unit i e b : qn2 (s_q (sd_state_q s i e b)) = 1.
  Proof. rewrite sd_quat. cbn [s_q]. rewrite mult_norm2, Hq, Rmult_1_l. destruct b; rewrite ?conj_norm2; apply dq_unit. Qed.
End StateDerivs.

(* C08: the get_state() dictionary the state is rebuilt from does not name the rate frame, which comes back as "body"; [restore]
   puts it back *)
Theorem reset_from_unit fcos fsin fasin fatan2 d2r (s : fstate R) : qn2 (f_q s) = 1 ->
  reset_from fcos fsin fasin fatan2 d2r s = mk_fs (f_p s) (f_q s) (f_v s) (f_w s) FBody.
Proof.
  intro Hq. unfold reset_from, set_state_dict. rewrite (normalize_unit_id _ Hq), (inv_trans_trans_unit _ _ Hq). reflexivity.
Qed.
Theorem restore_id fcos fsin fasin fatan2 d2r (s : fstate R) : qn2 (f_q s) = 1 -> restore fcos fsin fasin fatan2 d2r s = s.
Proof. intro Hq. unfold restore. rewrite reset_from_unit by exact Hq. destruct s; reflexivity. Qed.

(* C11, Galilean invariance.  The freestream seen by a control point is wind - velocity (scene.py 579-585). *)
Definition freestream (W v : v3 R) : v3 R := vadd (vopp v) W.
Lemma freestream_galilean W v : freestream W v = freestream vzero (vsub v W).
Proof. unfold freestream. vec. Qed.

Section Galilean.
  Variables (fcos fsin ftan fatan fasin : R -> R) (fatan2 : R -> R -> R) (d2r r2d : R).
  Variable W : v3 R.
  Variables (FW F0 : ast R -> list R).
  Definition shift (s : ast R) : ast R := mk_ast (vsub (s_v s) W) (s_w s) (s_p s) (s_q s) (s_c s).
  Hypothesis HF : forall s, FW s = F0 (shift s).

  Notation getW := (get_ae fasin fatan2 r2d W).
  Notation get0 := (get_ae fasin fatan2 r2d vzero).
  Notation setW := (set_ae fcos fsin ftan fatan fasin fatan2 d2r r2d W).
  Notation set0 := (set_ae fcos fsin ftan fatan fasin fatan2 d2r r2d vzero).

  Lemma get_shift s : getW s = get0 (shift s).
  Proof. unfold Analyses.get_ae, get_aero_state. cbn [s_q s_v]. rewrite vsub_0_r. reflexivity. Qed.
  Lemma set_shift s a b V : shift (setW s a b V) = set0 (shift s) a b V.
  Proof.
    destruct (getW s) as [[a0 b0] V0] eqn:E. rewrite set_ae_with with (a0 := a0) (b0 := b0) (V0 := V0) by exact E.
    rewrite get_shift in E. rewrite set_ae_with with (a0 := a0) (b0 := b0) (V0 := V0) by exact E.
    unfold with_ae, shift. cbn [s_v s_w s_p s_q s_c]. rewrite vsub_add_cancel, vadd_0_l. reflexivity.
  Qed.

  Theorem stability_shift s dth :
    stability fcos fsin ftan fatan fasin fatan2 d2r r2d vzero F0 (shift s) dth =
    let '(A, B, sf) := stability fcos fsin ftan fatan fasin fatan2 d2r r2d W FW s dth in (A, B, shift sf).
  Proof.
    unfold stability. rewrite get_shift. destruct (get0 (shift s)) as [[a0 b0] V0].
    (* backwards, from the still-air side: each intermediate state is then rewritten once, innermost first *)
    rewrite <- !set_shift, <- !HF. reflexivity.
  Qed.
  Theorem damping_shift s dw pp qq rr lat lon :
    damping fasin fatan2 r2d vzero F0 (shift s) dw pp qq rr lat lon =
    let '(A, B, C, sf) := damping fasin fatan2 r2d W FW s dw pp qq rr lat lon in (A, B, C, shift sf).
  Proof. unfold damping. rewrite get_shift. destruct (get0 (shift s)) as [[a0 b0] V0]. rewrite !HF. reflexivity. Qed.
  Theorem control_shift s i dth :
    control_deriv d2r F0 (shift s) i dth = let '(A, sf) := control_deriv d2r FW s i dth in (A, shift sf).
  Proof. unfold control_deriv. rewrite !HF. reflexivity. Qed.
  Theorem aero_center_shift s delta :
    aero_center fcos fsin ftan fatan fasin fatan2 d2r r2d vzero F0 (shift s) delta =
    let '(x, z, cm, sf) := aero_center fcos fsin ftan fatan fasin fatan2 d2r r2d W FW s delta in (x, z, cm, shift sf).
  Proof.
    unfold aero_center. rewrite get_shift. destruct (get0 (shift s)) as [[a0 b0] V0]. rewrite <- !set_shift, <- !HF. reflexivity.
  Qed.
  Theorem target_CL_shift fuel : forall s alpha CL target relax tol,
    target_CL_loop fcos fsin ftan fatan fasin fatan2 d2r r2d vzero F0 fuel (shift s) alpha CL target relax tol =
    option_map (fun r => (fst r, shift (snd r)))
               (target_CL_loop fcos fsin ftan fatan fasin fatan2 d2r r2d W FW fuel s alpha CL target relax tol).
  Proof.
    induction fuel as [|f IH]; intros s alpha CL target relax tol; cbn beta iota delta [target_CL_loop]; destruct (nltb tol _); try reflexivity.
    destruct f as [|f']; [reflexivity|]. rewrite <- IH. unfold CL_of. rewrite <- !set_shift, <- !HF. reflexivity.
  Qed.
End Galilean.
