(* C01: the closed forms the code uses for a straight vortex segment and for a semi-infinite trailing filament are the Biot-Savart
   line integrals over them: along a straight line dl x rho is constant and |rho|^2 is a quadratic q(t), so every component is a
   constant times the integral of q^(-3/2), which has an elementary antiderivative. *)
From Coq Require Import Reals Lra.
From Coquelicot Require Import Coquelicot.
From MuxV Require Import Base.Vec3 Base.RInst Model.Kernel Proofs.VecP.

Lemma gram_pos x y z : 0 < x * y - z * z -> 0 <= x -> 0 < x.
Proof. intros H [Hx| <-]; [exact Hx | nra]. Qed.

Lemma sq_lt_bounds x y : 0 < x -> y * y < x * x -> - x < y < x.
Proof. nra. Qed.

Section Quadratic.
  Variables a b c : R.
  Hypothesis HD : 0 < a * c - b * b.
  Hypothesis Ha : 0 <= a.
  Definition qd (t : R) : R := a * t * t - 2 * b * t + c.
  Definition Fd (t : R) : R := (a * t - b) / ((a * c - b * b) * sqrt (qd t)).

  Lemma qd_pos t : 0 < qd t.
  Proof.
    apply (Rmult_lt_reg_l a); [exact (gram_pos a c b HD Ha)|].
    replace (a * qd t) with ((a * t - b) * (a * t - b) + (a * c - b * b)) by (unfold qd; lra).
    pose proof (Rle_0_sqr (a * t - b)) as H. unfold Rsqr in H. lra.
  Qed.

  Lemma Fd_derive t : is_derive Fd t (/ (qd t * sqrt (qd t))).
  Proof.
    pose proof (qd_pos t) as Hq. pose proof (sqrt_lt_R0 _ Hq) as Hs. pose proof (sqrt_sqrt _ (Rlt_le _ _ Hq)) as Hss.
    (* [auto_derive] writes x - y as x + - y: put the facts about q in that form first *)
    unfold Fd, qd, Rminus in Hq, Hs, Hss |- *. auto_derive.
    - repeat split; [exact Hq | apply Rgt_not_eq, Rmult_gt_0_compat; [lra | exact Hs]].
    - (* with s = sqrt q a rational identity in a, b, t, s once q is written s^2 and a c - b^2 as a s^2 - (a t - b)^2 *)
      set (s := sqrt _) in *. set (D := a * c + - (b * b)).
      assert (E : D = a * (s * s) - (a * t + - b) * (a * t + - b)) by (rewrite Hss; unfold D; lra).
      rewrite <- Hss, E. field. rewrite <- E. unfold D. split; lra.
  Qed.

  Lemma inv_q32_continuous t : continuous (fun t => / (qd t * sqrt (qd t))) t.
  Proof.
    pose proof (qd_pos t) as Hq. pose proof (sqrt_lt_R0 _ Hq) as Hs.
    assert (Cq : continuous qd t) by (apply (ex_derive_continuous qd); unfold qd; auto_derive; exact I).
    apply continuous_Rinv_comp; [|apply Rgt_not_eq, Rmult_gt_0_compat; assumption].
    apply (continuous_mult (K := R_AbsRing) qd (fun t => sqrt (qd t))); [exact Cq | apply continuous_sqrt_comp, Cq].
  Qed.

  Theorem inv_q32_integral t0 t1 : is_RInt (fun t => / (qd t * sqrt (qd t))) t0 t1 (Fd t1 - Fd t0).
  Proof. apply (is_RInt_derive Fd); intros t _; [apply Fd_derive | apply inv_q32_continuous]. Qed.
End Quadratic.

Section Filament.
  Variables u r : v3 R.
  Definition rho_t (t : R) : v3 R := vsub r (vscale t u).   (* from the point at parameter t of the filament to the control point *)

  (* Biot-Savart integrand dl x rho / |rho|^3, dl = u dt *)
  Definition bs_integrand (t : R) : v3 R := vscale (/ (vnorm2 (rho_t t) * sqrt (vnorm2 (rho_t t)))) (vcross u (rho_t t)).

  Lemma cross_const_t t : vcross u (rho_t t) = vcross u r.
  Proof. unfold rho_t. vec. Qed.
  Lemma rho_t_norm2 t : vnorm2 (rho_t t) = qd (vnorm2 u) (vdot u r) (vnorm2 r) t.
  Proof. unfold rho_t, qd. vec. Qed.

  Hypothesis Hnc : vnorm2 (vcross u r) <> 0.          (* the control point is not on the line of the filament *)
  Lemma filament_nc : 0 < vnorm2 u * vnorm2 r - vdot u r * vdot u r.
  Proof. pose proof (vdot_nonneg (vcross u r)) as H. unfold vnorm2 in *. rewrite lagrange in *. lra. Qed.

  (* component by component: [proj] is vx, vy or vz *)
  Theorem filament_biot_savart (proj : v3 R -> R) (Hproj : forall k v, proj (vscale k v) = k * proj v) t0 t1 :
    let F := Fd (vnorm2 u) (vdot u r) (vnorm2 r) in
    is_RInt (fun t => proj (bs_integrand t)) t0 t1 (proj (vcross u r) * (F t1 - F t0)).
  Proof.
    intro F. set (q := qd (vnorm2 u) (vdot u r) (vnorm2 r)).
    apply (is_RInt_ext (fun t => proj (vcross u r) * / (q t * sqrt (q t)))).
    - intros t _. unfold bs_integrand. rewrite cross_const_t, rho_t_norm2, Hproj. apply Rmult_comm.
    - apply (is_RInt_scal (fun t => / (q t * sqrt (q t))) t0 t1 (proj (vcross u r)) (F t1 - F t0)).
      apply inv_q32_integral; [exact filament_nc | apply vdot_nonneg].
  Qed.
End Filament.

Section Scalar.
  Variables c e d : R.                          (* ra.ra, rb.rb, ra.rb *)
  Hypothesis Hnc : 0 < c * e - d * d.
  Hypothesis Hc : 0 <= c.
  Hypothesis He : 0 <= e.

  Let a := c + e - 2 * d.                       (* |L|^2, L = ra - rb *)
  Let b := c - d.                               (* ra . L *)

  Lemma acb : a * c - b * b = c * e - d * d.
  Proof. unfold a, b. lra. Qed.

  (* q(0) = c, q(1) = e, a - b = e - d and a c - b^2 = (R0 R1 - d) (R0 R1 + d) with R0 = sqrt c, R1 = sqrt e *)
  Lemma Fd_segment : Fd a b c 1 - Fd a b c 0 = (sqrt c + sqrt e) / (sqrt c * sqrt e * (sqrt c * sqrt e + d)).
  Proof.
    unfold Fd. rewrite acb. replace (qd a b c 1) with e by (unfold qd, a, b; lra). replace (qd a b c 0) with c by (unfold qd; lra).
    pose proof (sqrt_lt_R0 c (gram_pos c e d Hnc Hc)) as H0. pose proof (sqrt_lt_R0 e (gram_pos e c d ltac:(lra) He)) as H1.
    pose proof (sqrt_sqrt c Hc) as S0. pose proof (sqrt_sqrt e He) as S1.
    set (R0 := sqrt c) in *. set (R1 := sqrt e) in *.
    destruct (sq_lt_bounds (R0 * R1) d) as [Hm Hp]; [nra | nra |].
    unfold a, b. rewrite <- S0, <- S1. field. repeat split; nra.
  Qed.
End Scalar.

Section Segment.
  Variables ra rb : v3 R.                                 (* PC - A and PC - B: the segment A -> B seen from the control point *)
  Hypothesis Hnc : vnorm2 (vcross ra rb) <> 0.
  Let L := vsub ra rb.                                    (* = B - A : the direction of integration *)
  (* from the point A + t (B - A) of the segment to the control point; unfolds to [rho_t L ra]: the filament along L, run from t = 0 to 1 *)
  Definition rho (t : R) : v3 R := vsub ra (vscale t L).

  Lemma seg_cross : vcross L ra = vcross ra rb.
  Proof. unfold L. vec. Qed.

  Lemma seg_kernel_value :
    let F := Fd (vnorm2 L) (vdot L ra) (vnorm2 ra) in seg_kernel ra rb = vscale (F 1 - F 0) (vcross L ra).
  Proof.
    cbv zeta. replace (vnorm2 L) with (vnorm2 ra + vnorm2 rb - 2 * vdot ra rb) by (unfold L; vec).
    replace (vdot L ra) with (vnorm2 ra - vdot ra rb) by (unfold L; vec).
    rewrite (Fd_segment _ _ _ (filament_nc ra rb Hnc) (vdot_nonneg ra) (vdot_nonneg rb)).
    rewrite seg_cross. apply vdivs_scale.
  Qed.

  (* the factor 1 / (4 pi) is not part of [seg_kernel]: [vji] applies it to the sum *)
  Theorem seg_kernel_is_biot_savart (proj : v3 R -> R) (Hproj : forall k v, proj (vscale k v) = k * proj v) :
    is_RInt (fun t => proj (bs_integrand L ra t)) 0 1 (proj (seg_kernel ra rb)).
  Proof.
    rewrite seg_kernel_value, Hproj, Rmult_comm. apply filament_biot_savart; [|exact Hproj].
    rewrite seg_cross. exact Hnc.
  Qed.
End Segment.

Section Trailing.
  (* x / sqrt(x^2 + K) -> 1 as x -> +infinity, at the rate 1 - x / s = K / (s (s + x)) <= K / (2 x),  s = sqrt(x^2 + K) *)
  Lemma ratio_bound K x : 0 < K -> 1 <= x -> Rabs (x / (K * sqrt (x * x + K)) - / K) <= / (2 * x).
  Proof.
    intros HK Hx.
    pose proof (sqrt_sqrt (x * x + K) ltac:(nra)) as Hs2. pose proof (sqrt_lt_R0 (x * x + K) ltac:(nra)) as Hs.
    set (s := sqrt (x * x + K)) in *. clearbody s.
    assert (EK : K = s * s - x * x) by lra. subst K.
    assert (Hsx : x < s) by nra.
    replace (x / ((s * s - x * x) * s) - / (s * s - x * x)) with (- / (s * (s + x))) by (field; repeat split; nra).
    rewrite Rabs_Ropp, Rabs_pos_eq by (left; apply Rinv_0_lt_compat; nra).
    apply Rinv_le_contravar; nra.
  Qed.

  Variables b0 c : R.                         (* b0 = u . r,  c = r . r,  |u| = 1 *)
  Hypothesis HK : 0 < c - b0 * b0.            (* the control point is not on the line of the filament *)

  Lemma Fd_unit t : Fd 1 b0 c t = (t - b0) / ((c - b0 * b0) * sqrt (t * t - 2 * b0 * t + c)).
  Proof. unfold Fd, qd. rewrite !Rmult_1_l. reflexivity. Qed.

  Lemma Fd_limit : is_lim (Fd 1 b0 c) p_infty (/ (c - b0 * b0)).
  Proof.
    apply is_lim_spec. intros eps. exists (b0 + 1 + / eps). intros T HT.
    pose proof (cond_pos eps) as He. pose proof (Rinv_0_lt_compat _ He) as Hie.
    rewrite Fd_unit. replace (T * T - 2 * b0 * T + c) with ((T - b0) * (T - b0) + (c - b0 * b0)) by lra.
    eapply Rle_lt_trans; [apply ratio_bound; lra|].
    rewrite <- (Rinv_inv eps). apply Rinv_lt_contravar; [apply Rmult_lt_0_compat; lra | lra].
  Qed.

  (* value of the improper integral: (|r| + u.r) / (|r| (c - (u.r)^2)) = 1 / (|r| (|r| - u.r)) *)
  Theorem trail_integral_limit :
    is_lim (fun T => Fd 1 b0 c T - Fd 1 b0 c 0) p_infty (/ (sqrt c * (sqrt c - b0))).
  Proof.
    pose proof (sqrt_sqrt c ltac:(nra)) as S0. pose proof (sqrt_lt_R0 c ltac:(nra)) as H0.
    destruct (sq_lt_bounds (sqrt c) b0 H0 ltac:(lra)) as [Hm Hp].
    replace (/ (sqrt c * (sqrt c - b0))) with (/ (c - b0 * b0) - Fd 1 b0 c 0).
    - apply is_lim_minus'; [exact Fd_limit | apply is_lim_const].
    - rewrite Fd_unit. replace (0 * 0 - 2 * b0 * 0 + c) with c by lra.
      set (R0 := sqrt c) in *. rewrite <- S0. field. repeat split; nra.
  Qed.
End Trailing.

Section TrailingVec.
  Variables u r : v3 R.
  Hypothesis Hu : vnorm2 u = 1.
  Hypothesis Hnc : 0 < vnorm2 r - vdot u r * vdot u r.

  (* the improper integral as the integral up to T and the limit of its values *)
  Theorem trail_kernel_is_biot_savart (proj : v3 R -> R) (Hproj : forall k v, proj (vscale k v) = k * proj v) :
    let F := Fd (vnorm2 u) (vdot u r) (vnorm2 r) in
    (forall T, is_RInt (fun t => proj (bs_integrand u r t)) 0 T (proj (vcross u r) * (F T - F 0))) /\
    is_lim (fun T => proj (vcross u r) * (F T - F 0)) p_infty (proj (vdivs (vcross u r) (vnorm r * (vnorm r - vdot u r)))).
  Proof.
    intro F. split.
    - apply filament_biot_savart; [|exact Hproj].
      unfold vnorm2 in *. rewrite lagrange, Hu. lra.
    - unfold F. rewrite Hu, vdivs_as_vscale, Hproj, Rmult_comm.
      exact (is_lim_scal_l _ (proj (vcross u r)) p_infty _ (trail_integral_limit _ _ Hnc)).
  Qed.
End TrailingVec.
