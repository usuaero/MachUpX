(* The standard atmosphere over the reals (C17): the pressure satisfies the hydrostatic equation with the temperature np.interp gives. *)
From Coq Require Import Reals List Psatz.
From Coquelicot Require Import Coquelicot.
From MuxV Require Import Base.Num Base.RInst Base.Interp Model.Atmos Proofs.InterpP.
Import ListNotations.

Section AtmosR.
  Variable A : @atm R.
  Notation g := (ag_0 A). Notation M := (aM_0 A). Notation Rs := (aR_star A).
  Notation T0 := (aT_0 A). Notation K := (aK A).

  Definition Tb (Tm : R) : R := T0 + Tm + K.
  Definition pressR := press exp Rpower A.

  (* the code takes the isothermal formula when |L| < Ltol while the specification [Tmol] uses L itself: the two agree when such a
     lapse rate is exactly 0 *)
  Definition wf_layer (l : R * R * R * R) : Prop :=
    let '(Hb, Hb1, L, Tm) := l in
    Hb < Hb1 /\ (Rabs L < aLtol A -> L = 0) /\ 0 < Tb Tm /\ 0 < Tb Tm + L * (Hb1 - Hb).
  Fixpoint wf_layers (ls : list (R * R * R * R)) : Prop :=
    match ls with
    | [] => True
    | l :: rest => wf_layer l /\
                   match rest with [] => True | (Hb', _, _, _) :: _ => Hb' = snd (fst (fst l)) end /\
                   wf_layers rest
    end.

  (* a layer is (base, top, lapse rate, tabulated base temperature T_M,b; [Tb] adds the offsets); [wf_layers]: each starts where the one before
     ends.  [Tmol]: molecular-scale temperature at geopotential height H; [inside]: H lies in the interior of some layer (the
     breakpoints themselves are excluded; [Tmol] gives a breakpoint to the layer above it) *)
  Fixpoint Tmol (ls : list (R * R * R * R)) (H : R) : R :=
    match ls with
    | [] => 0
    | (Hb, Hb1, L, Tm) :: rest => if Rlt_dec H Hb1 then Tb Tm + L * (H - Hb) else Tmol rest H
    end.
  Fixpoint inside (ls : list (R * R * R * R)) (H : R) : Prop :=
    match ls with
    | [] => False
    | (Hb, Hb1, _, _) :: rest => (Hb < H < Hb1) \/ (Hb1 < H /\ inside rest H)
    end.

  Definition fac_at (Hb L Tm x : R) : R :=
    if Rltb (Rabs L) (aLtol A) then exp ((- g) * M * (x - Hb) / (Rs * Tb Tm))
    else Rpower (Tb Tm / (Tb Tm + L * (x - Hb))) (g * M / (Rs * L)).
  Lemma layer_factor_min Hb Hb1 L Tm H : layer_factor exp Rpower A Hb Hb1 L Tm H = fac_at Hb L Tm (Rmin H Hb1).
  Proof.
    unfold layer_factor, fac_at, Tb. rnum.
    destruct (Rltb_spec Hb1 H); [rewrite Rmin_right by lra | rewrite Rmin_left by lra]; reflexivity.
  Qed.

  Lemma press_cons Hb Hb1 L Tm rest H P :
    pressR ((Hb, Hb1, L, Tm) :: rest) H P =
    if Rltb Hb H then pressR rest H (P * fac_at Hb L Tm (Rmin H Hb1)) else P.
  Proof. rewrite <- layer_factor_min. reflexivity. Qed.

  Lemma press_below ls H P :
    match ls with [] => True | (Hb, _, _, _) :: _ => H <= Hb end -> pressR ls H P = P.
  Proof.
    destruct ls as [|[[[Hb Hb1] L] Tm] rest]; [reflexivity|]. rewrite press_cons.
    destruct (Rltb_spec Hb H); [lra | reflexivity].
  Qed.

  Lemma press_first_layer Hb Hb1 L Tm rest H P :
    wf_layers ((Hb, Hb1, L, Tm) :: rest) -> Hb < H <= Hb1 ->
    pressR ((Hb, Hb1, L, Tm) :: rest) H P = P * fac_at Hb L Tm H.
  Proof.
    intros [_ [Hnext _]] [H1 H2]. cbn [fst snd] in Hnext. rewrite press_cons.
    destruct (Rltb_spec Hb H); [|lra]. rewrite Rmin_left by exact H2. apply press_below.
    destruct rest as [|[[[Hb' ?] ?] ?] ?]; [exact I|]. subst Hb'; exact H2.
  Qed.
  Lemma press_past_layer Hb Hb1 L Tm rest H P : Hb < Hb1 < H ->
    pressR ((Hb, Hb1, L, Tm) :: rest) H P = pressR rest H (P * fac_at Hb L Tm Hb1).
  Proof. intros H1. rewrite press_cons. destruct (Rltb_spec Hb H); [|lra]. rewrite Rmin_right by lra. reflexivity. Qed.

  Lemma fac_at_base Hb L Tm : 0 < Tb Tm -> fac_at Hb L Tm Hb = 1.
  Proof.
    intros HT. unfold fac_at. destruct (Rltb (Rabs L) (aLtol A)).
    - replace (- g * M * (Hb - Hb) / (Rs * Tb Tm)) with 0 by (unfold Rdiv; ring). apply exp_0.
    - replace (Tb Tm / (Tb Tm + L * (Hb - Hb))) with 1 by (field; lra).
      unfold Rpower. rewrite ln_1, Rmult_0_r. apply exp_0.
  Qed.

  (* with [fac_at_base], the pressure is continuous across a layer boundary *)
  Lemma press_above_boundary Hb Hb1 L Tm Hb2 L' Tm' rest H P :
    wf_layers ((Hb, Hb1, L, Tm) :: (Hb1, Hb2, L', Tm') :: rest) -> Hb1 < H <= Hb2 ->
    pressR ((Hb, Hb1, L, Tm) :: (Hb1, Hb2, L', Tm') :: rest) H P =
    pressR ((Hb, Hb1, L, Tm) :: (Hb1, Hb2, L', Tm') :: rest) Hb1 P * fac_at Hb1 L' Tm' H.
  Proof.
    intros Hwf H12. pose proof Hwf as [[Hlt _] [_ Hwf2]].
    rewrite (press_first_layer Hb Hb1 L Tm _ Hb1 P Hwf), press_past_layer by lra. apply press_first_layer; assumption.
  Qed.

  Hypothesis Hltol : 0 < aLtol A.
  Hypothesis HRs : Rs <> 0.

  Lemma fac_at_derive Hb L Tm x :
    (Rabs L < aLtol A -> L = 0) -> 0 < Tb Tm -> 0 < Tb Tm + L * (x - Hb) ->
    is_derive (fun h => fac_at Hb L Tm h) x (- (g * M) / (Rs * (Tb Tm + L * (x - Hb))) * fac_at Hb L Tm x).
  Proof.
    intros HL HT HTx. unfold fac_at.
    destruct (Rltb_spec (Rabs L) (aLtol A)) as [E|E].
    - specialize (HL E). subst L.
      auto_derive; [exact I|]. unfold Rminus, Rdiv in *.
      field. split; lra.
    - assert (HL0 : L <> 0). { intro; subst L. rewrite Rabs_R0 in E. lra. }
      unfold Rpower. auto_derive.
      + split; [lra|]. split; [|exact I]. apply Rdiv_lt_0_compat; lra.
      + unfold Rminus, Rdiv in *.
        field. repeat split; lra.
  Qed.

  Theorem hydrostatic_layers ls : wf_layers ls -> forall P H, inside ls H ->
    is_derive (fun h => pressR ls h P) H (- (g * M) / (Rs * Tmol ls H) * pressR ls H P).
  Proof.
    induction ls as [|[[[Hb Hb1] L] Tm] rest IH]; intros Hwf P H Hin; [destruct Hin|].
    pose proof Hwf as [[Hlt [HL [HT HT1]]] [_ Hwf']].
    cbn [Tmol]. destruct Hin as [[H1 H2]|[H1 Hin]]; destruct (Rlt_dec H Hb1); try lra.
    - apply (is_derive_ext_loc (fun h => P * fac_at Hb L Tm h)).
      + apply (locally_interval _ H Hb Hb1 H1 H2). cbn. intros. symmetry. apply press_first_layer; [exact Hwf | lra].
      + rewrite press_first_layer by (exact Hwf || lra).
        rewrite <- Rmult_assoc, (Rmult_comm _ P), Rmult_assoc. apply is_derive_scal, fac_at_derive; try assumption.
        (* T_M is positive at both ends of the layer and linear between *)
        destruct (Rle_dec 0 L); nra.
    - apply (is_derive_ext_loc (fun h => pressR rest h (P * fac_at Hb L Tm Hb1))).
      + apply (locally_interval _ H Hb1 p_infty H1 I). cbn. intros. symmetry. apply press_past_layer. lra.
      + rewrite press_past_layer by lra. apply IH; assumption.
  Qed.

  (* the breakpoints increase and consecutive ordinates of the (H_b, T_M_b) table differ by lapse rate times layer depth *)
  (* the breakpoints increase and the temperature at the top of a layer is that of the next node; the lists of breakpoints and
     of temperatures are passed without their heads [Hb], [Tm] *)
  Inductive lapse_ok : R -> R -> list R -> list R -> list R -> Prop :=
  | lapse_top Hb Tm Ls Tms : lapse_ok Hb Tm [] Ls Tms
  | lapse_layer Hb Tm Hb1 Hs L Ls Tm1 Tms :
      Hb < Hb1 -> Tm1 = Tm + L * (Hb1 - Hb) -> lapse_ok Hb1 Tm1 Hs Ls Tms -> lapse_ok Hb Tm (Hb1 :: Hs) (L :: Ls) (Tm1 :: Tms).

  Lemma wf_mk_layers Hb Tm Hs Ls Tms : lapse_ok Hb Tm Hs Ls Tms ->
    List.Forall (fun L => Rabs L < aLtol A -> L = 0) Ls -> List.Forall (fun Tm => 0 < Tb Tm) (Tm :: Tms) ->
    wf_layers (mk_layers (Hb :: Hs) Ls (Tm :: Tms)).
  Proof.
    induction 1 as [|Hb Tm Hb1 Hs L Ls Tm1 Tms Hlt HTm Hok IH]; intros HL HT; [exact I|].
    inversion_clear HL as [|? ? HL1 HL']. inversion_clear HT as [|? ? HT1 HT']. pose proof (Forall_inv HT') as HT2.
    repeat split; try assumption.
    - unfold Tb in *. lra.
    - destruct Hok; [exact I | reflexivity].
    - apply IH; assumption.
  Qed.

  Lemma inside_mk_layers Hb Tm Hs Ls Tms H Ht : lapse_ok Hb Tm Hs Ls Tms ->
    In Ht Hs -> Hb < H < Ht -> List.Forall (fun Hk => H <> Hk) Hs -> inside (mk_layers (Hb :: Hs) Ls (Tm :: Tms)) H.
  Proof.
    induction 1 as [|Hb Tm Hb1 Hs L Ls Tm1 Tms Hlt HTm Hok IH]; intros Hin HH Hne; [destruct Hin|].
    inversion_clear Hne as [|? ? Hn Hne']. destruct (Rlt_dec H Hb1); [left; lra | right]. split; [lra|].
    destruct Hin as [<-|Hin]; [lra|]. apply IH; [exact Hin | lra | exact Hne'].
  Qed.

  Lemma Tmol_interp_go Hb Tm Hs Ls Tms H Ht : lapse_ok Hb Tm Hs Ls Tms -> In Ht Hs -> Hb <= H < Ht ->
    interp_go H Hb Tm (combine Hs Tms) + T0 + K = Tmol (mk_layers (Hb :: Hs) Ls (Tm :: Tms)) H.
  Proof.
    induction 1 as [|Hb Tm Hb1 Hs L Ls Tm1 Tms Hlt HTm Hok IH]; intros Hin HH; [destruct Hin|].
    cbn [combine mk_layers Tmol]. destruct (Rlt_dec H Hb1).
    - rewrite interp_go_first, HTm by lra. unfold Tb. field. lra.
    - rewrite interp_go_skip by lra. destruct Hin as [<-|Hin]; [lra|]. apply IH; [exact Hin | lra].
  Qed.
  Theorem T_SI_of_H_Tmol Hb Hs Tm Tms H Ht : aH_b A = Hb :: Hs -> aT_M_b A = Tm :: Tms ->
    lapse_ok Hb Tm Hs (aL_M_b A) Tms -> In Ht Hs -> Hb <= H < Ht -> T_SI_of_H A H = Tmol (layers A) H.
  Proof.
    intros EH ET Hok Hin HH. unfold T_SI_of_H, layers. rewrite EH, ET. cbn [combine]. rewrite interp_cons_ge by lra.
    apply (Tmol_interp_go Hb Tm Hs (aL_M_b A) Tms H Ht); assumption.
  Qed.
End AtmosR.
