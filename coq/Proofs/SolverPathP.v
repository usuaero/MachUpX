(* C14, independence of the solver path: the fixed points of the relaxed Newton update are exactly the zeros of the residual,
   whatever the (non-zero) relaxation factor and the starting vector. *)
From Coq Require Import Reals Lra List.
From MuxV Require Import Base.Num Base.Vec3 Base.RInst Model.Residual.
Local Open Scope R_scope.

Definition zeros {A} (l : list A) : list R := map (fun _ => 0) l.
Definition all_zero (l : list R) : Prop := Forall (fun x => x = 0) l.

Lemma map2_fixed {A B} (f : A -> B -> A) (P : B -> Prop) : (forall x y, f x y = x <-> P y) ->
  forall g d, length d = length g -> (map2 f g d = g <-> Forall P d).
Proof.
  intros Hf. induction g as [|x g IH]; intros [|y d] Hl; try discriminate; cbn [map2].
  - split; [constructor | reflexivity].
  - injection Hl as Hl. rewrite Forall_cons_iff, <- (Hf x y), <- (IH d Hl).
    split; [intros [= H1 H2]; auto | intros [-> ->]; reflexivity].
Qed.

Lemma relaxed_step_fixed w x dx : w <> 0 -> (x + w * dx = x <-> dx = 0).
Proof.
  intros Hw. split; [intros H | intros ->; rewrite Rmult_0_r; apply Rplus_0_r].
  destruct (Rmult_integral w dx) as [E|E]; [lra | contradiction | exact E].
Qed.

Lemma all_zero_opp l : all_zero (map Ropp l) <-> all_zero l.
Proof. unfold all_zero. rewrite Forall_map. split; apply Forall_impl; intros x; lra. Qed.

Section FP.
  Variables (fatan2 : R -> R -> R) (O : opts) (solve : list (list R) -> list R -> list R) (relax : R).
  Variables (cs : list (cpt R)) (Ss : list (section R)) (Vm : list (list (v3 R))).
  Notation res := (residual fatan2 O cs Ss Vm).
  Notation jac := (jacobian fatan2 O cs Ss Vm).
  (* what is assumed of np.linalg.solve at the iterate g: the matrix is invertible there, so the only right-hand side with a zero
     solution is the zero vector *)
  Definition solve_regular (g : list R) : Prop :=
    forall b, length b = length g -> length (solve (jac g) b) = length g /\ (all_zero (solve (jac g) b) <-> all_zero b).

  Theorem fixed_points_are_zeros g : relax <> 0 -> length (res g) = length g -> solve_regular g ->
    (newton_update fatan2 O solve relax cs Ss Vm g = g <-> all_zero (res g)).
  Proof.
    intros Hw Hl Hs. destruct (Hs (map Ropp (res g))) as [Hlen Hz]; [rewrite map_length; exact Hl|].
    rewrite <- all_zero_opp, <- Hz. apply map2_fixed; [intros x dx; apply relaxed_step_fixed, Hw | exact Hlen].
  Qed.
End FP.
