(* numpy.interp (Base/Interp.v) over the reals on strictly increasing abscissae: constant to the left of the first node, affine
   between neighbours, equal to the ordinate at every node ([interp_reproduces_nodes]). *)
From Coq Require Import Reals Lra List.
From MuxV Require Import Base.RInst Base.Interp.
Import ListNotations.
Local Open Scope R_scope.

Fixpoint incr_from (x : R) (l : list (R * R)) : Prop :=
  match l with [] => True | (x1, _) :: r => x < x1 /\ incr_from x1 r end.
Definition incr (l : list (R * R)) : Prop :=
  match l with [] => True | (x0, _) :: r => incr_from x0 r end.
(* the empty table counts as increasing, and [interp x []] is 0: statements about values carry [tbl <> []] themselves *)
(* step tables repeat a node *)
Fixpoint nondecr_from (x : R) (l : list (R * R)) : Prop :=
  match l with [] => True | (x1, _) :: r => x <= x1 /\ nondecr_from x1 r end.

Lemma incr_from_map {A} (k h : A -> R * R) : (forall a, fst (k a) = fst (h a)) ->
  forall l x, incr_from x (map k l) -> incr_from x (map h l).
Proof.
  intros E. induction l as [|a l IH]; intros x H; [exact I|].
  cbn [map incr_from] in *. specialize (E a). destruct (k a), (h a). cbn [fst] in E; subst. split; [apply H | apply IH, H].
Qed.
Lemma incr_map {A} (k h : A -> R * R) : (forall a, fst (k a) = fst (h a)) -> forall l, incr (map k l) -> incr (map h l).
Proof.
  intros E [|a l]; [intros; exact I|]. cbn [map incr]. pose proof (incr_from_map k h E l) as H. specialize (E a).
  destruct (k a), (h a). cbn [fst] in E; subst. apply H.
Qed.

Lemma interp_cons x x0 y0 r : interp x ((x0, y0) :: r) = if Rltb x x0 then y0 else interp_go x x0 y0 r.
Proof. reflexivity. Qed.
Lemma interp_go_eq x xj yj rest :
  interp_go x xj yj rest =
  match rest with
  | [] => yj
  | (x1, y1) :: r => if Rleb x1 x then interp_go x x1 y1 r
                     else if Reqb xj x then yj else (y1 - yj) / (x1 - xj) * (x - xj) + yj
  end.
Proof. destruct rest as [|[x1 y1] r]; reflexivity. Qed.

Lemma interp_left x x0 y0 r : x < x0 -> interp x ((x0, y0) :: r) = y0.
Proof. rewrite interp_cons. destruct (Rltb_spec x x0); [reflexivity | lra]. Qed.
Lemma interp_cons_ge x x0 y0 r : x0 <= x -> interp x ((x0, y0) :: r) = interp_go x x0 y0 r.
Proof. rewrite interp_cons. destruct (Rltb_spec x x0); [lra | reflexivity]. Qed.

Lemma interp_go_skip x xj yj x1 y1 r :
  x1 <= x -> interp_go x xj yj ((x1, y1) :: r) = interp_go x x1 y1 r.
Proof. rewrite interp_go_eq. destruct (Rleb_spec x1 x); [reflexivity | lra]. Qed.
Lemma interp_go_first x xj yj x1 y1 r :
  xj <= x < x1 -> interp_go x xj yj ((x1, y1) :: r) = (y1 - yj) / (x1 - xj) * (x - xj) + yj.
Proof.
  intros [H1 H2]. rewrite interp_go_eq. destruct (Rleb_spec x1 x); [lra|].
  destruct (Reqb_spec xj x) as [->|_]; [ring | reflexivity].
Qed.
Lemma interp_go_node xj yj rest : incr_from xj rest -> interp_go xj xj yj rest = yj.
Proof.
  destruct rest as [|[x1 y1] r]; [reflexivity|]. intros [H _]. rewrite interp_go_first by lra. ring.
Qed.

Lemma interp_two x x0 y0 x1 y1 : x0 <= x < x1 ->
  interp x [(x0, y0); (x1, y1)] = y0 + (y1 - y0) / (x1 - x0) * (x - x0).
Proof. intros H. rewrite interp_cons_ge, interp_go_first by lra. apply Rplus_comm. Qed.

Lemma interp_go_const c x xj rest :
  Forall (fun p => snd p = c) rest -> interp_go x xj c rest = c.
Proof.
  intros HF; revert xj. induction HF as [|[x1 y1] r H1 _ IH]; intros xj; [reflexivity|].
  cbn [snd] in H1; subst y1. rewrite interp_go_eq. destruct (Rleb x1 x); [apply IH|].
  destruct (Reqb xj x); [reflexivity|]. unfold Rdiv; ring.
Qed.
Lemma interp_const c x tbl : tbl <> [] -> Forall (fun p => snd p = c) tbl -> interp x tbl = c.
Proof.
  destruct tbl as [|[x0 y0] r]; [congruence|]. intros _ HF. pose proof (Forall_inv HF) as H1. cbn [snd] in H1; subst y0.
  rewrite interp_cons. destruct (Rltb x x0); [reflexivity|]. apply interp_go_const, (Forall_inv_tail HF).
Qed.

Lemma incr_from_In_lt x0 r x y : incr_from x0 r -> In (x, y) r -> x0 < x.
Proof.
  revert x0; induction r as [|[x2 y2] r IH]; intros x0 Hi Hin; [destruct Hin|].
  destruct Hi as [H12 Hi]. destruct Hin as [[= <- _]|Hin]; [exact H12|].
  specialize (IH _ Hi Hin); lra.
Qed.

Lemma interp_go_reproduces xj yj rest x y :
  incr_from xj rest -> In (x, y) rest -> interp_go x xj yj rest = y.
Proof.
  revert xj yj; induction rest as [|[x1 y1] r IH]; intros xj yj Hi Hin; [destruct Hin|].
  destruct Hi as [Hlt Hi]. destruct Hin as [[= <- <-]|Hin].
  - rewrite interp_go_skip by lra. apply interp_go_node; assumption.
  - assert (x1 < x) by (eapply incr_from_In_lt; eassumption).
    rewrite interp_go_skip by lra. apply IH; assumption.
Qed.
Theorem interp_reproduces_nodes tbl x y : incr tbl -> In (x, y) tbl -> interp x tbl = y.
Proof.
  destruct tbl as [|[x0 y0] r]; [intros _ []|]. intros Hi [[= <- <-]|Hin].
  - rewrite interp_cons_ge by lra. apply interp_go_node; exact Hi.
  - assert (x0 < x) by (eapply incr_from_In_lt; eassumption).
    rewrite interp_cons_ge by lra. apply interp_go_reproduces; assumption.
Qed.
