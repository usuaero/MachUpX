(* The algebra of [v3 R] that the proof files share: module laws, inner and cross product, the norm, additive homogeneous maps
   (rotations, reflections, scalings), the reflection through the x-z plane.  At the end, what the 8.16 library lacks about [combine]
   and [rev], for the two places where lists consumed in step are reversed (KernelP, ReidP). *)
From Coq Require Import Reals Lra List.
From MuxV Require Import Base.Num Base.Vec3 Base.RInst.
Local Open Scope R_scope.

Lemma V3_eq (a b c a' b' c' : R) : a = a' -> b = b' -> c = c' -> V3 a b c = V3 a' b' c'.
Proof. intros; subst; reflexivity. Qed.

Lemma v3_ext (a b : v3 R) : vx a = vx b -> vy a = vy b -> vz a = vz b -> a = b.
Proof. destruct a, b; apply V3_eq. Qed.

(* [vec_unfold] turns an identity between vector expressions (or scalar ones built from them) into identities between polynomials
   in the components, in the goal and in the hypotheses; [vec] closes them.  Definitions built on the vector operations are unfolded
   by the caller first.  One [cbv] with an explicit list: [unfold]/[cbn]/[rnum] in sequence leave a cast each for [Qed] to re-check.
   [vnorm] is not in the list and stays folded (unfolded by hand it shows the class's [nsqrt]: [rnum] makes it [sqrt]).  [lra], not
   [ring]: the two sides have the same normal form, which is all [lra] needs, and it is much the cheaper to check. *)
Ltac vec_unfold :=
  try apply v3_ext;
  cbv beta iota zeta delta [vnorm2 vadd vsub vscale vscaler vdivs vopp vdot vcross vzero vx vy vz
                       nadd nsub nmul ndiv nopp nsqrt nabs n0 n1 nofZ RNum] in *.
Ltac vec := vec_unfold; first [reflexivity | unfold Rdiv; lra].

Lemma vadd_0_l (a : v3 R) : vadd vzero a = a. Proof. vec_unfold; apply Rplus_0_l. Qed.
Lemma vadd_0_r (a : v3 R) : vadd a vzero = a. Proof. vec_unfold; apply Rplus_0_r. Qed.
Lemma vadd_comm (a b : v3 R) : vadd a b = vadd b a. Proof. vec_unfold; apply Rplus_comm. Qed.
Lemma vadd_assoc (a b c : v3 R) : vadd (vadd a b) c = vadd a (vadd b c). Proof. vec_unfold; apply Rplus_assoc. Qed.
Lemma vsub_0_r (a : v3 R) : vsub a vzero = a. Proof. vec_unfold; apply Rminus_0_r. Qed.
Lemma vsub_add_cancel (w a : v3 R) : vsub (vadd w a) w = a. Proof. vec. Qed.
Lemma vadd_sub_cancel (w a : v3 R) : vadd w (vsub a w) = a. Proof. vec. Qed.
Lemma vadd_comm3 (a b c : v3 R) : vadd a (vadd b c) = vadd b (vadd a c).
Proof. rewrite <- !vadd_assoc, (vadd_comm a b). reflexivity. Qed.
Lemma vsub_as_vadd (a b : v3 R) : vsub a b = vadd a (vscale (-1) b). Proof. vec. Qed.
Lemma vopp_as_vscale (a : v3 R) : vopp a = vscale (-1) a. Proof. vec. Qed.
Lemma vopp_vopp (a : v3 R) : vopp (vopp a) = a. Proof. vec_unfold; apply Ropp_involutive. Qed.
Lemma vscaler_as_vscale (a : v3 R) k : vscaler a k = vscale k a. Proof. vec_unfold; apply Rmult_comm. Qed.
Lemma vdivs_as_vscale (a : v3 R) d : vdivs a d = vscale (/ d) a. Proof. vec_unfold; apply Rmult_comm. Qed.
Lemma vscale_1_l (v : v3 R) : vscale 1 v = v. Proof. vec_unfold; apply Rmult_1_l. Qed.
Lemma vscale_vscale a b (v : v3 R) : vscale a (vscale b v) = vscale (a * b) v. Proof. vec_unfold; symmetry; apply Rmult_assoc. Qed.
Lemma vscale_comm c k (a : v3 R) : vscale k (vscale c a) = vscale c (vscale k a).
Proof. rewrite !vscale_vscale, (Rmult_comm k c). reflexivity. Qed.
Lemma vscale_add k (a b : v3 R) : vscale k (vadd a b) = vadd (vscale k a) (vscale k b). Proof. vec_unfold; apply Rmult_plus_distr_l. Qed.
Lemma vscale_0_r k : vscale k (@vzero R _) = vzero. Proof. vec_unfold; apply Rmult_0_r. Qed.
Lemma vdivs_scale (a : v3 R) k d : vdivs (vscale k a) d = vscale (k / d) a. Proof. vec. Qed.

Lemma vdivs_1_r (a : v3 R) : vdivs a 1 = a.
Proof. rewrite vdivs_as_vscale, Rinv_1. apply vscale_1_l. Qed.
Lemma vdivs_opp (a : v3 R) d : vdivs (vopp a) d = vopp (vdivs a d).
Proof. rewrite !vdivs_as_vscale, !vopp_as_vscale. apply vscale_comm. Qed.

Lemma vdot_comm (a b : v3 R) : vdot a b = vdot b a. Proof. vec. Qed.
Lemma vdot_scale_l k (a b : v3 R) : vdot (vscale k a) b = k * vdot a b. Proof. vec. Qed.
Lemma vdot_scale_r k (a b : v3 R) : vdot a (vscale k b) = k * vdot a b. Proof. vec. Qed.
Lemma vdot_add_l (a b c : v3 R) : vdot (vadd a b) c = vdot a c + vdot b c. Proof. vec. Qed.
Lemma vdot_add_r (a b c : v3 R) : vdot a (vadd b c) = vdot a b + vdot a c. Proof. vec. Qed.
Lemma vdot_opp_l (a b : v3 R) : vdot (vopp a) b = - vdot a b. Proof. vec. Qed.
Lemma vdot_divs_l (a b : v3 R) d : vdot (vdivs a d) b = vdot a b / d.
Proof. rewrite vdivs_as_vscale, vdot_scale_l. apply Rmult_comm. Qed.
Lemma vdot_nonneg (a : v3 R) : 0 <= vdot a a.
Proof. vec_unfold. nra. Qed.
Lemma gram_schmidt_orth (a u : v3 R) : vdot u u = 1 -> vdot (vsub a (vscale (vdot a u) u)) u = 0.
Proof. intro H. rewrite vsub_as_vadd, vdot_add_l, !vdot_scale_l, H. lra. Qed.
Lemma vcross_scale_l k (a b : v3 R) : vcross (vscale k a) b = vscale k (vcross a b). Proof. vec. Qed.
Lemma vcross_scale_r k (a b : v3 R) : vcross a (vscale k b) = vscale k (vcross a b). Proof. vec. Qed.
Lemma vcross_anti (a b : v3 R) : vcross a b = vopp (vcross b a). Proof. vec. Qed.
Lemma vdot_cross_l (a b : v3 R) : vdot a (vcross a b) = 0. Proof. vec. Qed.
Lemma vdot_cross_r (a b : v3 R) : vdot b (vcross a b) = 0. Proof. vec. Qed.
Lemma vdot_cross_cyc (a b c : v3 R) : vdot a (vcross b c) = vdot b (vcross c a). Proof. vec. Qed.
Lemma lagrange (a b : v3 R) : vdot (vcross a b) (vcross a b) = vdot a a * vdot b b - vdot a b * vdot a b. Proof. vec. Qed.

Lemma vnorm_sq (a : v3 R) : vnorm a * vnorm a = vdot a a.
Proof. apply sqrt_sqrt, vdot_nonneg. Qed.
Lemma vnorm2_scale k (a : v3 R) : vnorm2 (vscale k a) = k * k * vnorm2 a. Proof. vec. Qed.
Lemma vnorm_opp (a : v3 R) : vnorm (vopp a) = vnorm a.
Proof. unfold vnorm. f_equal. vec. Qed.
Lemma vnorm_sub_comm (a b : v3 R) : vnorm (vsub a b) = vnorm (vsub b a).
Proof. unfold vnorm. f_equal. vec. Qed.
Lemma vnorm2_opp (a : v3 R) : vnorm2 (vopp a) = vnorm2 a. Proof. vec. Qed.
Lemma vnorm2_divs (a : v3 R) d : vnorm2 (vdivs a d) = vnorm2 a / (d * d).
Proof. rewrite vdivs_as_vscale, vnorm2_scale. unfold Rdiv. rewrite Rinv_mult. apply Rmult_comm. Qed.
Lemma vnorm_scale k (a : v3 R) : 0 <= k -> vnorm (vscale k a) = k * vnorm a.
Proof.
  intros Hk. unfold vnorm. rewrite vnorm2_scale.
  rewrite sqrt_mult_alt, sqrt_square by nra. reflexivity.
Qed.
Lemma vnorm2_normalized (v : v3 R) : vnorm2 v <> 0 -> vnorm2 (vdivs v (vnorm v)) = 1.
Proof. intro H. rewrite vnorm2_divs, vnorm_sq. apply Rinv_r, H. Qed.

Lemma vnorm2_cross_orth (a b : v3 R) : vnorm2 a = 1 -> vnorm2 b = 1 -> vdot a b = 0 -> vnorm2 (vcross a b) = 1.
Proof. unfold vnorm2. rewrite lagrange. intros -> -> ->. lra. Qed.

Section Linear.
  Variable O : v3 R -> v3 R.
  Hypothesis O_add : forall a b, O (vadd a b) = vadd (O a) (O b).
  Hypothesis O_scale : forall k a, O (vscale k a) = vscale k (O a).

  Lemma lin_sub a b : O (vsub a b) = vsub (O a) (O b).
  Proof. rewrite !vsub_as_vadd, O_add, O_scale. reflexivity. Qed.
  Lemma lin_zero : O vzero = vzero.
  Proof. rewrite <- (vscale_0_r 0), O_scale. vec. Qed.
  Lemma lin_opp a : O (vopp a) = vopp (O a).
  Proof. rewrite !vopp_as_vscale. apply O_scale. Qed.
  Lemma lin_scaler a k : O (vscaler a k) = vscaler (O a) k.
  Proof. rewrite !vscaler_as_vscale. apply O_scale. Qed.
  Lemma lin_divs a d : O (vdivs a d) = vdivs (O a) d.
  Proof. rewrite !vdivs_as_vscale. apply O_scale. Qed.

  Hypothesis O_dot : forall a b, vdot (O a) (O b) = vdot a b.
  Lemma isom_norm a : vnorm (O a) = vnorm a.
  Proof. unfold vnorm, vnorm2. rewrite O_dot. reflexivity. Qed.
End Linear.

(* a port wing is the image of the starboard wing under this reflection *)
Definition vmir (p : v3 R) : v3 R := V3 (vx p) (- vy p) (vz p).
Lemma vmir_add a b : vmir (vadd a b) = vadd (vmir a) (vmir b). Proof. unfold vmir. vec. Qed.
Lemma vmir_scale k a : vmir (vscale k a) = vscale k (vmir a). Proof. unfold vmir. vec. Qed.
Lemma vmir_dot a b : vdot (vmir a) (vmir b) = vdot a b. Proof. unfold vmir. vec. Qed.
Lemma vmir_cross a b : vcross (vmir a) (vmir b) = vscale (-1) (vmir (vcross a b)). Proof. unfold vmir. vec. Qed.

Import ListNotations.
Lemma combine_snoc {A B} (a : list A) (b : list B) x y : length a = length b -> combine (a ++ [x]) (b ++ [y]) = combine a b ++ [(x, y)].
Proof.
  revert b; induction a as [|p a IH]; intros [|q b] H; try discriminate; [reflexivity|].
  injection H as H. cbn [app combine]. rewrite IH by exact H. reflexivity.
Qed.
Lemma combine_rev {A B} (a : list A) (b : list B) : length a = length b -> combine (rev a) (rev b) = rev (combine a b).
Proof.
  revert b; induction a as [|p a IH]; intros [|q b] H; try discriminate; [reflexivity|].
  injection H as H. cbn [rev combine]. rewrite combine_snoc, IH by (rewrite ?rev_length; exact H). reflexivity.
Qed.
