(* Model/Alias.v: when the aircraft keeps a copy of the position array it is handed ([copy] = true, np.array), every query is answered
   with the geometry of the aircraft's current position, whatever the history of hand-overs and of edits by the caller; when it keeps
   the caller's reference ([copy] = false, np.asarray) a four-call history refutes that (Props/C07.v). *)
From Coq Require Import ZArith List Bool.
From MuxV Require Import Model.Alias.
Import ListNotations.

Lemma arr_eqb_eq x y : arr_eqb x y = true -> x = y.
Proof.
  unfold arr_eqb. revert y; induction x as [|a x IH]; intros [|b y] H; try reflexivity; try discriminate.
  cbn in H. apply andb_true_iff in H. destruct H as [Hl H]. apply andb_true_iff in H. destruct H as [Hab H].
  apply Z.eqb_eq in Hab. subst b. f_equal. apply IH. apply andb_true_iff. split; assumption.
Qed.

Definition coherent (s : st) : Prop := exists v, pos s = Own v /\ geom s = v.

(* a hand-over compares the old position with the copy just taken: equal contents keep the geometry, which was built for them *)
Lemma step_copy s e : coherent s ->
  coherent (fst (step true s e)) /\ forall o, snd (step true s e) = Some o -> fst o = snd o.
Proof.
  intros [v [Hp Hg]]. destruct e as [a|a w|]; cbn [step fst snd].
  - split; [|discriminate]. exists (nth a (hp s) []). split; [reflexivity|]. rewrite Hp. cbn [deref].
    destruct (arr_eqb v (nth a (hp s) [])) eqn:E; [rewrite Hg; apply arr_eqb_eq, E | reflexivity].
  - split; [exists v; split; assumption | discriminate].
  - split; [exists v; split; assumption|]. intros o [= <-]. rewrite Hp. symmetry. exact Hg.
Qed.

Theorem copy_queries_fresh es : forall s, coherent s -> Forall (fun o => fst o = snd o) (run true s es).
Proof.
  induction es as [|e r IH]; intros s Hs; [constructor|].
  cbn [run]. destruct (step_copy s e Hs) as [Hs' Ho]. destruct (step true s e) as [s' [o|]].
  - constructor; [apply Ho; reflexivity | apply IH, Hs'].
  - apply IH, Hs'.
Qed.

Lemma copy_position_independent_of_later_writes h p0 a a' w :
  deref (hp (fst (step true (fst (step true (init h p0) (SetState a))) (CallerWrites a' w))))
        (pos (fst (step true (fst (step true (init h p0) (SetState a))) (CallerWrites a' w)))) = nth a h [].
Proof. reflexivity. Qed.

(* The caller updates its array in place and hands the same dictionary over again: with the copy (first run below) the geometry
   follows the position; by reference (MachUpX before its fix ebac569; Props/C07.v runs this history with [false]) the aircraft is at the
   new position with the geometry of the old one.  By reference an edit without any call already moves the aircraft (second run). *)
Theorem copy_same_history :
  run true (init [[0; 0; -1000]%Z] [0; 0; 0]%Z) [SetState 0; CallerWrites 0 [0; 0; -30000]%Z; SetState 0; Query]
  = [([0; 0; -30000]%Z, [0; 0; -30000]%Z)].
Proof. reflexivity. Qed.
Theorem alias_edit_without_call :
  run false (init [[0; 0; -1000]%Z] [0; 0; 0]%Z) [SetState 0; Query; CallerWrites 0 [5; 5; 5]%Z; Query]
  = [([0; 0; -1000]%Z, [0; 0; -1000]%Z); ([5; 5; 5]%Z, [0; 0; -1000]%Z)].
Proof. reflexivity. Qed.
