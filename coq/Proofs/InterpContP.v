(* np.interp over strictly increasing abscissae is a sum of ramps, hence continuous; so the sweep and dihedral integrands of the
   quarter-chord curve are Riemann integrable, the sweep integrand as long as the sweep never reaches 90 degrees. *)
From Coq Require Import Reals Lra List.
From Coquelicot Require Import Coquelicot.
From MuxV Require Import Base.RInst Base.Interp Model.QCurve Proofs.InterpP Proofs.QCurveP.
Import ListNotations.

(* clamp(x; lo, hi) - lo, written with absolute values *)
Definition ramp (lo hi x : R) : R := (Rabs (x - lo) - Rabs (x - hi) + (hi - lo)) / 2.
Lemma ramp_below lo hi x : lo <= hi -> x <= lo -> ramp lo hi x = 0.
Proof. intros H1 H2. unfold ramp. rewrite (Rabs_left1 (x - lo)), (Rabs_left1 (x - hi)) by lra. lra. Qed.
Lemma ramp_inside lo hi x : lo <= x <= hi -> ramp lo hi x = x - lo.
Proof. intros [H1 H2]. unfold ramp. rewrite (Rabs_right (x - lo)), (Rabs_left1 (x - hi)) by lra. lra. Qed.
Lemma ramp_above lo hi x : lo <= hi -> hi <= x -> ramp lo hi x = hi - lo.
Proof. intros H1 H2. unfold ramp. rewrite (Rabs_right (x - lo)), (Rabs_right (x - hi)) by lra. lra. Qed.
Lemma ramp_continuous lo hi x : continuous (ramp lo hi) x.
Proof.
  assert (A : forall c, continuous (fun x => Rabs (x - c)) x).
  { intro c. apply continuous_Rabs_comp. apply (continuous_minus (fun x => x) (fun _ => c)); [apply continuous_id | apply continuous_const]. }
  unfold ramp. apply (continuous_scal_l (fun x => Rabs (x - lo) - Rabs (x - hi) + (hi - lo)) (/ 2)).
  apply (continuous_plus (fun x => Rabs (x - lo) - Rabs (x - hi)) (fun _ => hi - lo)); [|apply continuous_const].
  apply (continuous_minus (fun x => Rabs (x - lo)) (fun x => Rabs (x - hi))); apply A.
Qed.

(* every interval adds its slope times the part of it that lies below x *)
Fixpoint pl_from (xj yj : R) (rest : list (R * R)) (x : R) : R :=
  match rest with
  | [] => 0
  | (x1, y1) :: r => (y1 - yj) / (x1 - xj) * ramp xj x1 x + pl_from x1 y1 r x
  end.

Lemma pl_zero rest : forall xj yj x, incr_from xj rest -> x <= xj -> pl_from xj yj rest x = 0.
Proof.
  induction rest as [|[x1 y1] r IH]; intros xj yj x Hi Hx; [reflexivity|].
  destruct Hi as [H1 H2]. cbn [pl_from]. rewrite ramp_below by lra. rewrite (IH x1 y1 x H2) by lra. ring.
Qed.

Lemma interp_go_pl rest : forall xj yj x, incr_from xj rest -> xj <= x -> interp_go x xj yj rest = yj + pl_from xj yj rest x.
Proof.
  induction rest as [|[x1 y1] r IH]; intros xj yj x Hi Hx.
  - symmetry. apply Rplus_0_r.
  - destruct Hi as [H1 H2]. cbn [pl_from]. destruct (Rle_lt_dec x1 x) as [E|E].
    + rewrite interp_go_skip, (IH x1 y1 x H2 E), ramp_above by lra. field. lra.
    + rewrite interp_go_first, (pl_zero r x1 y1 x H2), ramp_inside by lra. ring.
Qed.

Theorem interp_pl x0 y0 rest x : incr_from x0 rest -> interp x ((x0, y0) :: rest) = y0 + pl_from x0 y0 rest x.
Proof.
  intro Hi. destruct (Rle_lt_dec x0 x) as [E|E].
  - rewrite interp_cons_ge by exact E. apply interp_go_pl; assumption.
  - rewrite interp_left, (pl_zero rest x0 y0 x Hi) by lra. ring.
Qed.

Lemma pl_continuous rest : forall xj yj x, continuous (pl_from xj yj rest) x.
Proof.
  induction rest as [|[x1 y1] r IH]; intros xj yj x.
  - apply continuous_const.
  - apply (continuous_plus (fun x => (y1 - yj) / (x1 - xj) * ramp xj x1 x) (pl_from x1 y1 r)); [|apply IH].
    apply (continuous_scal_r ((y1 - yj) / (x1 - xj)) (ramp xj x1)). apply ramp_continuous.
Qed.

Theorem interp_continuous tbl x : incr tbl -> continuous (fun s => interp s tbl) x.
Proof.
  destruct tbl as [|[x0 y0] rest]; intro Hi; [apply continuous_const|].
  apply (continuous_ext (fun s => y0 + pl_from x0 y0 rest s)); [intro s; symmetry; apply interp_pl; exact Hi|].
  apply (continuous_plus (fun _ => y0) (pl_from x0 y0 rest)); [apply continuous_const | apply pl_continuous].
Qed.

Definition wf_dist (d : dist R) : Prop := match d with DConst _ => True | DTab tbl => incr tbl end.

Lemma angle_val_continuous dr d x : wf_dist d -> continuous (angle_val dr d) x.
Proof.
  destruct d as [c|tbl]; intro H.
  - apply continuous_const.
  - (* [rad_tbl] keeps the span column *)
    apply interp_continuous, (incr_map (fun p => p)); [reflexivity | rewrite map_id; exact H].
Qed.

Lemma ex_RInt_angle (phi : R -> R) dr d : wf_dist d -> (forall s, continuous phi (angle_val dr d s)) ->
  forall a b, ex_RInt (fun s => phi (angle_val dr d s)) a b.
Proof.
  intros H Hphi a b. apply (ex_RInt_continuous (V := R_CompleteNormedModule)). intros z _.
  apply (continuous_comp (angle_val dr d) phi); [apply angle_val_continuous; exact H | apply Hphi].
Qed.

Theorem qc_standard_is_curve_tables dr sw di : wf_dist sw -> wf_dist di -> (forall s, cos (angle_val dr sw s) <> 0) ->
  forall left_side root b rest s, nondecr 0 rest -> 0 <= s <= last rest 0 ->
  qc_code dr sw di left_side root b (0 :: rest) s = curve_spec dr sw di left_side root b s.
Proof.
  intros Hsw Hdi Hc. apply qc_standard_is_curve.
  - apply (ex_RInt_angle tan); [exact Hsw | intro s; apply continuous_tan, Hc].
  - apply (ex_RInt_angle cos); [exact Hdi | intro s; apply continuous_cos].
  - apply (ex_RInt_angle sin); [exact Hdi | intro s; apply continuous_sin].
Qed.
