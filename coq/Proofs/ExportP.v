(* Model/Export.v (C20): default file names, the vertex slots and facets of the STL export, the labels of the distributions file. *)
From Coq Require Import List String Arith Lia.
From MuxV Require Import Model.Validate Model.Export.
Import ListNotations.

Lemma substring_app b t : substring 0 (String.length b) (b ++ t)%string = b.
Proof. induction b as [|c b IH]; simpl; [destruct t; reflexivity | rewrite IH; reflexivity]. Qed.

Lemma last_occ_suffix pat b : last_occ pat pat = Some 0 -> last_occ pat (b ++ pat)%string = Some (String.length b).
Proof. intro H. induction b as [|c b IH]; [exact H|]. cbn [append last_occ String.length]. rewrite IH. reflexivity. Qed.

Theorem base_name_spec b : base_name (b ++ ".json")%string = b.
Proof. unfold base_name. rewrite last_occ_suffix by reflexivity. apply substring_app. Qed.

Lemma default_filename_other input key : key <> "export_stl" -> key <> "export_vtk" -> key <> "distributions" ->
  default_filename input key = if extension_ok "display" key then None else Some (base_name input ++ "_" ++ key ++ ".json")%string.
Proof. intros H1 H2 H3. unfold default_filename. apply String.eqb_neq in H1, H2, H3. rewrite H1, H2, H3. reflexivity. Qed.

Theorem default_names b key :
  let input := (b ++ ".json")%string in
  default_filename input "export_stl" = Some (b ++ ".stl")%string /\
  default_filename input "export_vtk" = Some (b ++ ".vtk")%string /\
  default_filename input "distributions" = Some (b ++ "_distributions.csv")%string /\
  (key <> "export_stl" -> key <> "export_vtk" -> key <> "distributions" ->
   default_filename input key = if extension_ok "display" key then None else Some (b ++ "_" ++ key ++ ".json")%string).
Proof.
  intro input. rewrite <- (base_name_spec b).
  split; [reflexivity|]. split; [reflexivity|]. split; [reflexivity|]. apply default_filename_other.
Qed.

Theorem run_cli_calls methods input run :
  map fst (run_cli methods input run) = filter (fun k => mem k methods) (map fst run).
Proof.
  unfold run_cli. induction run as [|[key given] r IH]; simpl; [reflexivity|].
  destruct (mem key methods); simpl; rewrite IH; reflexivity.
Qed.
Theorem run_cli_filenames methods input run key f :
  In (key, f) (run_cli methods input run) ->
  mem key methods = true /\
  exists given, In (key, given) run /\ f = match given with Some g => Some g | None => default_filename input key end.
Proof.
  unfold run_cli. rewrite in_flat_map. intros [[k g] [Hin Hc]].
  destruct (mem k methods) eqn:E; [|destruct Hc]. destruct Hc as [[= <- <-]|[]].
  split; [exact E|]. exists g. split; [exact Hin | reflexivity].
Qed.
Theorem run_cli_unknown_skipped methods input key given r :
  mem key methods = false -> run_cli methods input ((key, given) :: r) = run_cli methods input r.
Proof. intro H. unfold run_cli. simpl. rewrite H. reflexivity. Qed.

Theorem two_tris_cover {A} (b : bool) (v0 v1 v2 v3 x : A) : In x (two_tris b v0 v1 v2 v3) <-> In x [v0; v1; v2; v3].
Proof. destruct b; simpl; tauto. Qed.
Theorem two_tris_length {A} (b : bool) (v0 v1 v2 v3 : A) : List.length (two_tris b v0 v1 v2 v3) = 6.
Proof. destruct b; reflexivity. Qed.

(* A vertex position is a number of three digits: section i, outline interval j < R - 1, corner k < 6.  One digit r < b below a number q: *)
Lemma digit_pack n b q r : q < n -> r < b -> q * b + r < n * b /\ (q * b + r) / b = q /\ (q * b + r) mod b = r.
Proof.
  intros Hq Hr. split; [apply Nat.lt_le_trans with (S q * b); [cbn; lia | apply Nat.mul_le_mono_r, Hq]|].
  split; symmetry; [apply (Nat.div_unique _ b q r) | apply (Nat.mod_unique _ b q r)]; lia.
Qed.
Lemma digit_unpack n b v : v < n * b -> v / b < n /\ v mod b < b /\ v / b * b + v mod b = v.
Proof.
  intros Hv. assert (b <> 0) by lia. split; [apply Nat.div_lt_upper_bound; lia|]. split; [apply Nat.mod_upper_bound; assumption|].
  rewrite Nat.mul_comm. symmetry. apply Nat.div_mod. assumption.
Qed.

Lemma slot_eq R i j : slot R i j = (i * (R - 1) + j) * 6.
Proof. unfold slot. lia. Qed.
Lemma facets_eq N R : 3 * num_facets N R = N * (R - 1) * 6.
Proof. unfold num_facets. lia. Qed.

Theorem slot_code R N i j k : i < N -> j < R - 1 -> k < 6 -> slot R i j + k < 3 * num_facets N R /\ decode R (slot R i j + k) = (i, j, k).
Proof.
  intros Hi Hj Hk. rewrite slot_eq, facets_eq. unfold decode.
  destruct (digit_pack N (R - 1) i j Hi Hj) as (Hq & Ei & Ej). destruct (digit_pack _ 6 _ k Hq Hk) as (Hv & -> & ->).
  rewrite Ei, Ej. split; [exact Hv | reflexivity].
Qed.
Theorem slot_decode R N v : v < 3 * num_facets N R ->
  let '(i, j, k) := decode R v in i < N /\ j < R - 1 /\ k < 6 /\ slot R i j + k = v.
Proof.
  intros Hv. rewrite facets_eq in Hv. unfold decode. rewrite slot_eq.
  destruct (digit_unpack _ 6 v Hv) as (Hq & Hk & Ev). destruct (digit_unpack N (R - 1) _ Hq) as (Hi & Hj & ->). auto.
Qed.

Theorem quad_mirror {A} (M : A -> A) (rootR tipR rootL tipL : nat -> A) j :
  (forall n, rootL n = M (rootR n)) -> (forall n, tipL n = M (tipR n)) ->
  quad_left rootL tipL j = map M (rev (quad_right rootR tipR j)).
Proof. intros Hr Ht. unfold quad_left. rewrite !Hr, !Ht. reflexivity. Qed.

Lemma chunk3_spec {A} n : forall l : list A, List.length l = 3 * n -> List.concat (chunk3 l) = l /\ List.length (chunk3 l) = n.
Proof.
  induction n as [|n IH]; intros l Hl.
  - destruct l; [split; reflexivity | simpl in Hl; lia].
  - destruct l as [|a [|b [|c r]]]; simpl in Hl; try lia.
    destruct (IH r ltac:(lia)) as [H1 H2]. simpl. rewrite H1, H2. split; reflexivity.
Qed.
Lemma chunk3_triples {A} (l : list A) : Forall (fun f => List.length f = 3) (chunk3 l).
Proof. (* [chunk3] recurses three elements down: the same [fix], not [induction] *) revert l. fix IH 1. intros [|a [|b [|c r]]]; constructor; [reflexivity | apply IH]. Qed.
Theorem airplane_facets_spec {A} (segs : list (list A)) (ns : list nat) :
  Forall2 (fun s n => List.length s = 3 * n) segs ns ->
  List.concat (airplane_facets segs) = List.concat segs /\ List.length (airplane_facets segs) = fold_right Nat.add 0 ns.
Proof.
  induction 1 as [|s n segs' ns' Hs _ IH]; [split; reflexivity|].
  destruct IH as [I1 I2]. destruct (chunk3_spec n s Hs) as [C1 C2].
  simpl. rewrite List.concat_app, app_length, I1, I2, C1, C2. split; reflexivity.
Qed.

Lemma substring_all s n : String.length s <= n -> substring 0 n s = s.
Proof.
  revert n; induction s as [|c r IH]; intros [|n] H; try reflexivity; [inversion H|].
  cbn [substring]. f_equal. apply IH, le_S_n, H.
Qed.
Lemma name_width_ge names n : In n names -> String.length n <= name_width names.
Proof.
  unfold name_width. induction names as [|a r IH]; intros H; [destruct H|].
  destruct H as [->|H].
  - apply Nat.le_max_l.
  - etransitivity; [apply IH; exact H | apply Nat.le_max_r].
Qed.
Theorem csv_labels_are_names names n : In n names -> csv_label (name_width names) n = n.
Proof. intros H. apply substring_all. apply name_width_ge. exact H. Qed.
Theorem csv_labels_injective names a b : In a names -> In b names ->
  csv_label (name_width names) a = csv_label (name_width names) b -> a = b.
Proof. intros Ha Hb. rewrite !csv_labels_are_names by assumption. exact (fun H => H). Qed.
