(* Classical lifting-line theory: the closed forms C18 compares the code with, and the planform facts behind its area / MAC limits. *)
From Coq Require Import Reals Lra List.
From Coquelicot Require Import Coquelicot.
Import ListNotations.

(* every denominator below is 1 + a multiple of a0 cr / (4 b) = a0 / (pi RA) *)
Lemma slope_ratio_pos a0 cr b : 0 < a0 -> 0 < cr -> 0 < b -> 0 < a0 * cr / (4 * b).
Proof. intros. apply Rdiv_lt_0_compat; [apply Rmult_lt_0_compat; assumption | lra]. Qed.

Section Elliptic.
  (* full span b, root chord cr, freestream V, section lift slope a0, geometric angle alpha; elliptic chord c = cr sin(theta),
     elliptic circulation G = G0 sin(theta), y = -(b/2) cos(theta) *)
  Variables b cr V a0 alpha G0 : R.
  Hypotheses (Hb : 0 < b) (Hcr : 0 < cr) (HV : 0 < V) (Ha0 : 0 < a0).
  Let S := PI * b * cr / 4.                 (* area of the ellipse *)
  Let RA := b * b / S.
  (* Prandtl: an elliptic circulation induces the uniform downwash G0 / (2 b) *)
  Let w := G0 / (2 * b).
  (* the lifting-line equation at station theta:  rho V G = 1/2 rho V^2 c a0 (alpha - w / V) *)
  Definition ll_equation (theta : R) : Prop := V * (G0 * sin theta) = / 2 * V * V * (cr * sin theta) * a0 * (alpha - w / V).

  Lemma RA_pos : 0 < RA.
  Proof.
    unfold RA, S. assert (HP : 0 < PI) by apply PI_RGT_0.
    assert (0 < PI * b * cr) by (apply Rmult_lt_0_compat; [apply Rmult_lt_0_compat|]; assumption).
    apply Rdiv_lt_0_compat; [apply Rmult_lt_0_compat; assumption | lra].
  Qed.
  Theorem lift_slope : a0 * cr / (4 * b) = a0 / (PI * RA).
  Proof. unfold RA, S. assert (HP := PI_RGT_0). field. repeat split; lra. Qed.

  Theorem ll_equation_iff theta :
    ll_equation theta <-> sin theta = 0 \/ G0 = / 2 * V * cr * a0 * alpha / (1 + a0 * cr / (4 * b)).
  Proof.
    pose proof (slope_ratio_pos a0 cr b Ha0 Hcr Hb) as Hk. unfold ll_equation, w. set (k := a0 * cr / (4 * b)) in *.
    assert (E : V * (G0 * sin theta) - / 2 * V * V * (cr * sin theta) * a0 * (alpha - G0 / (2 * b) / V)
                = V * sin theta * (G0 * (1 + k) - / 2 * V * cr * a0 * alpha)) by (unfold k; field; lra).
    split.
    - intro H. apply Rminus_diag_eq in H. rewrite E in H.
      destruct (Rmult_integral _ _ H) as [H1|H1]; [destruct (Rmult_integral _ _ H1); [lra | left; assumption]|].
      right. apply Rminus_diag_uniq in H1. rewrite <- H1. field. lra.
    - intros [H|H]; apply Rminus_diag_uniq; rewrite E, H; [lra | field; lra].
  Qed.

  (* lift = rho V * integral of G dy = rho V G0 (pi b / 4);   CL = lift / (1/2 rho V^2 S) *)
  Definition CL := (V * G0 * (PI * b / 4)) / (/ 2 * V * V * S).
  Definition CDi := CL * (w / V).            (* induced drag = lift tilted by the uniform downwash angle *)

  Theorem CL_closed_form : G0 = / 2 * V * cr * a0 * alpha / (1 + a0 * cr / (4 * b)) -> CL = a0 * alpha / (1 + a0 / (PI * RA)).
  Proof.
    intro HG. rewrite <- lift_slope. pose proof (slope_ratio_pos a0 cr b Ha0 Hcr Hb) as Hk. set (k := a0 * cr / (4 * b)) in *.
    unfold CL, S. rewrite HG. assert (HP := PI_RGT_0). field. repeat split; lra.
  Qed.
  Theorem CDi_closed_form : CDi = CL * CL / (PI * RA).
  Proof. unfold CDi, CL, w, RA, S. assert (HP := PI_RGT_0). field. repeat split; lra. Qed.
End Elliptic.

(* roll damping: a roll rate p adds the antisymmetric angle -p y / V = (p b / 2V) cos(theta); with the elliptic chord the circulation is
   G = A2 sin(2 theta); Prandtl's downwash of a mode Gn sin(n theta) is n Gn sin(n theta) / (2 b sin(theta)) (n = 1: the uniform
   G0 / (2 b) above) *)
Section RollDamping.
  Variables b cr V a0 pbar A2 : R.          (* pbar = p b / (2 V) *)
  Hypotheses (Hb : 0 < b) (Hcr : 0 < cr) (HV : 0 < V) (Ha0 : 0 < a0).
  Let Sw := PI * b * cr / 4.
  Let RAw := b * b / Sw.
  Definition ll_roll (theta : R) : Prop :=
    V * (A2 * sin (2 * theta)) = / 2 * V * V * (cr * sin theta) * a0 * (pbar * cos theta - (2 * A2 * sin (2 * theta) / (2 * b * sin theta)) / V).
  Theorem roll_mode_solves : A2 = / 4 * V * cr * a0 * pbar / (1 + 2 * (a0 * cr / (4 * b))) -> forall theta, sin theta <> 0 -> ll_roll theta.
  Proof.
    intros HA theta Hs. unfold ll_roll. rewrite sin_2a, HA. field. repeat split; try assumption; nra.
  Qed.
  (* rolling moment = -rho V * integral of G y dy = -rho V A2 (pi b^2 / 16)   (integral of sin(2t) cos(t) sin(t) over [0,pi] = pi/4);
     Cl = moment / (1/2 rho V^2 S b) *)
  Definition Cl := - (V * A2 * (PI * b * b / 16)) / (/ 2 * V * V * Sw * b).
  Theorem Cl_pbar_closed_form : A2 = / 4 * V * cr * a0 * pbar / (1 + 2 * (a0 * cr / (4 * b))) -> Cl = - a0 / (8 * (1 + 2 * a0 / (PI * RAw))) * pbar.
  Proof.
    intro HA. unfold Cl, RAw, Sw. assert (HP := PI_RGT_0). rewrite HA. field. repeat split; nra.
  Qed.
End RollDamping.

Definition ell (x : R) : R := sqrt (1 - x * x).

Lemma ell_sq x : -1 <= x <= 1 -> ell x * ell x = 1 - x * x.
Proof. intro H. unfold ell. apply sqrt_sqrt. nra. Qed.

Lemma sq_convex u p q : 0 <= u <= 1 -> (u * p + (1 - u) * q) * (u * p + (1 - u) * q) <= u * (p * p) + (1 - u) * (q * q).
Proof.
  intro Hu. apply Rminus_le_0.
  replace (u * (p * p) + (1 - u) * (q * q) - (u * p + (1 - u) * q) * (u * p + (1 - u) * q)) with (u * (1 - u) * ((p - q) * (p - q))) by lra.
  apply Rmult_le_pos; [nra | apply Rle_0_sqr].
Qed.

(* both sides are non-negative; squared, with m = u x + (1-u) y:
   (u ell x + (1-u) ell y)^2 <= u (ell x)^2 + (1-u) (ell y)^2 = 1 - (u x^2 + (1-u) y^2) <= 1 - m^2 = (ell m)^2, by [sq_convex] twice *)
Theorem ell_concave x y u : -1 <= x <= 1 -> -1 <= y <= 1 -> 0 <= u <= 1 ->
  u * ell x + (1 - u) * ell y <= ell (u * x + (1 - u) * y).
Proof.
  intros Hx Hy Hu. pose proof (sq_convex u x y Hu) as Hm.
  apply Rsqr_incr_0_var; [|apply sqrt_pos]. unfold Rsqr. rewrite ell_sq by nra.
  eapply Rle_trans; [apply sq_convex, Hu|]. rewrite !ell_sq by assumption. lra.
Qed.

(* the rule the code integrates planform areas with *)
Fixpoint trap (f : R -> R) (xs : list R) : R :=
  match xs with
  | a :: ((b :: _) as r) => (b - a) * (f a + f b) / 2 + trap f r
  | _ => 0
  end.

Lemma trap_cons f a b r : trap f (a :: b :: r) = (b - a) * (f a + f b) / 2 + trap f (b :: r).
Proof. reflexivity. Qed.
Lemma trap_app f pre a r : trap f (pre ++ a :: r) = trap f (pre ++ [a]) + trap f (a :: r).
Proof.
  induction pre as [|p [|q pre] IH]; cbn [app] in *.
  - cbn [trap]. lra.
  - rewrite !trap_cons. lra.
  - rewrite !trap_cons. lra.
Qed.

(* the area grows by ((c - a) f m - (c - m) f a - (m - a) f c) / 2 *)
Theorem trap_insert_concave (f : R -> R) a m c : a < m < c ->
  (forall u, 0 <= u <= 1 -> u * f a + (1 - u) * f c <= f (u * a + (1 - u) * c)) -> trap f [a; c] <= trap f [a; m; c].
Proof.
  intros Hm Hf. set (u := (c - m) / (c - a)).
  assert (Hu : 0 <= u <= 1) by (split; [left; apply Rdiv_lt_0_compat | apply -> Rdiv_le_1]; lra).
  specialize (Hf u Hu). replace (u * a + (1 - u) * c) with m in Hf by (unfold u; field; lra).
  apply (Rmult_le_compat_r (c - a)) in Hf; [|lra].
  replace ((u * f a + (1 - u) * f c) * (c - a)) with ((c - m) * f a + (m - a) * f c) in Hf by (unfold u; field; lra).
  rewrite !trap_cons. lra.
Qed.
Theorem trap_refine f pre a m c post :
  trap f [a; c] <= trap f [a; m; c] -> trap f (pre ++ a :: c :: post) <= trap f (pre ++ a :: m :: c :: post).
Proof. rewrite (trap_app f pre a (c :: post)), (trap_app f pre a (m :: c :: post)), !trap_cons. lra. Qed.

(* [is_RInt_scal] with [scal] written as the product the statements below have *)
Lemma is_RInt_Rmult (f : R -> R) a b k l : is_RInt f a b l -> is_RInt (fun x => k * f x) a b (k * l).
Proof. exact (is_RInt_scal f a b k l). Qed.

Lemma RInt_one_minus_sq : is_RInt (fun x => 1 - x * x) 0 1 (2 / 3).
Proof.
  replace (2 / 3) with ((fun x => x - x * x * x / 3) 1 - (fun x => x - x * x * x / 3) 0) by (simpl; field).
  apply (is_RInt_derive (fun x => x - x * x * x / 3) (fun x => 1 - x * x)).
  - intros x _. auto_derive; [exact I | field].
  - intros x _. apply (ex_derive_continuous (fun x => 1 - x * x)). auto_derive. exact I.
Qed.

Lemma continuous_ell x : continuous ell x.
Proof.
  unfold ell. apply continuous_sqrt_comp. apply (ex_derive_continuous (fun x => 1 - x * x)). auto_derive. exact I.
Qed.

Lemma ell_sin t : 0 <= cos t -> ell (sin t) = cos t.
Proof. intro H. unfold ell. change (1 - sin t * sin t) with (1 - (sin t)²). rewrite <- cos2. apply sqrt_Rsqr, H. Qed.

Lemma RInt_cos_sq : is_RInt (fun t => cos t * cos t) 0 (PI / 2) (PI / 4).
Proof.
  replace (PI / 4) with ((fun t => t / 2 + sin t * cos t / 2) (PI / 2) - (fun t => t / 2 + sin t * cos t / 2) 0).
  2:{ simpl. rewrite cos_PI2, sin_0. field. }
  apply (is_RInt_derive (fun t => t / 2 + sin t * cos t / 2) (fun t => cos t * cos t)).
  - intros t _. auto_derive; [exact I|]. pose proof (sin2_cos2 t) as H. unfold Rsqr in H. nra.
  - intros t _. apply (ex_derive_continuous (fun t => cos t * cos t)). auto_derive. exact I.
Qed.

(* by the substitution x = sin t *)
Theorem RInt_ell : is_RInt ell 0 1 (PI / 4).
Proof.
  assert (HP := PI_RGT_0).
  assert (Hc : is_RInt (fun t => scal (cos t) (ell (sin t))) 0 (PI / 2) (RInt ell (sin 0) (sin (PI / 2)))).
  { apply (is_RInt_comp ell sin cos).
    - intros x _. apply continuous_ell.
    - split; [auto_derive; [exact I | lra] | apply continuous_cos]. }
  rewrite sin_0, sin_PI2 in Hc.
  assert (He : is_RInt (fun t => cos t * cos t) 0 (PI / 2) (RInt ell 0 1)).
  { apply (is_RInt_ext (fun t => scal (cos t) (ell (sin t)))); [|exact Hc].
    rewrite Rmin_left, Rmax_right by lra. intros t Ht. rewrite ell_sin by (apply cos_ge_0; lra). reflexivity. }
  replace (PI / 4) with (RInt ell 0 1).
  - apply (RInt_correct ell 0 1), (ex_RInt_continuous ell). intros z _. apply continuous_ell.
  - rewrite <- (is_RInt_unique _ _ _ _ He). exact (is_RInt_unique _ _ _ _ RInt_cos_sq).
Qed.

(* mean aerodynamic chord of the elliptic wing c = cr ell(eta): MAC = int c^2 / int c *)
Theorem elliptic_MAC cr : 0 < cr ->
  is_RInt (fun x => (cr * ell x) * (cr * ell x)) 0 1 (cr * cr * (2 / 3)) /\ is_RInt (fun x => cr * ell x) 0 1 (cr * (PI / 4)) /\
  (cr * cr * (2 / 3)) / (cr * (PI / 4)) = 8 * cr / (3 * PI).
Proof.
  assert (HP := PI_RGT_0). split; [|split].
  - apply (is_RInt_ext (fun x => cr * cr * (1 - x * x))); [|apply is_RInt_Rmult, RInt_one_minus_sq].
    rewrite Rmin_left, Rmax_right by lra. intros x Hx. rewrite <- ell_sq by lra. lra.
  - apply is_RInt_Rmult, RInt_ell.
  - field. split; lra.
Qed.
(* both semispans, each of length b / 2 over the span fraction in [0,1]: the S of the closed forms above *)
Theorem elliptic_area b cr : is_RInt (fun x => b / 2 * (cr * ell x)) 0 1 (PI * b * cr / 8) /\ 2 * (PI * b * cr / 8) = PI * b * cr / 4.
Proof.
  split; [|field].
  replace (PI * b * cr / 8) with (b / 2 * (cr * (PI / 4))) by field. apply is_RInt_Rmult, is_RInt_Rmult, RInt_ell.
Qed.
