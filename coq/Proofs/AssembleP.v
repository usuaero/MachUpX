(* What a scene is solved on turns with the scene (C03): the Earth-frame arrays assembled from the aircraft (Model/Assemble.v) and
   the freestream, rotation velocities and trailing directions computed from their states (Model/Flow.v). *)
From Coq Require Import Reals.
From MuxV Require Import Base.Vec3 Base.RInst Model.Helpers Model.Assemble Model.Flow Proofs.HelpersP.
Local Open Scope R_scope.

(* a rigid motion of the whole scene, rotation r and translation t: the new attitude is r q (first r, then q) *)
Definition moved_q (r q : quat R) : quat R := quat_mult r q.
Definition moved_p (r : quat R) (t p : v3 R) : v3 R := vadd t (quat_inv_trans r p).
Definition move (r : quat R) (t x : v3 R) : v3 R := vadd t (quat_inv_trans r x).

Theorem to_earth_rigid r t q p x : to_earth (moved_q r q) (moved_p r t p) x = move r t (to_earth q p x).
Proof.
  unfold to_earth, moved_p, move. rewrite inv_trans_mult, inv_trans_add. vec.
Qed.
Theorem dir_to_earth_rigid r q u : dir_to_earth (moved_q r q) u = quat_inv_trans r (dir_to_earth q u).
Proof. unfold dir_to_earth, moved_q. apply inv_trans_mult. Qed.
Theorem node_seen_rigid r t same q p e a : node_seen same (moved_q r q) (moved_p r t p) e a = move r t (node_seen same q p e a).
Proof. unfold node_seen. apply to_earth_rigid. Qed.
(* the translation drops out, and these vectors are all the influence and the residual see of the positions *)
Theorem r_vec_rigid r t pc node : r_vec (move r t pc) (move r t node) = quat_inv_trans r (r_vec pc node).
Proof.
  unfold r_vec, move. rewrite inv_trans_sub. vec.
Qed.

Lemma project_out_orth (z u : v3 R) : vnorm2 z = 1 -> vdot z (project_out z u) = 0.
Proof.
  intro Hz. unfold project_out. rewrite vdot_comm, (vdot_comm z u). apply gram_schmidt_orth, Hz.
Qed.

Theorem constrained_in_body_plane (q : quat R) (vj : v3 R) :
  vnorm2 (body_z q) = 1 -> vdot (body_z q) (trailing_dir true q vj) = 0.
Proof.
  intro Hz. unfold trailing_dir, unitv at 1. rewrite vdivs_as_vscale, vdot_scale_r, project_out_orth by exact Hz. apply Rmult_0_r.
Qed.

Theorem trailing_is_unit (q : quat R) (vj : v3 R) : vnorm2 vj <> 0 -> vnorm2 (trailing_dir false q vj) = 1.
Proof. apply vnorm2_normalized. Qed.

Theorem v_inf_and_rot_eq (q : quat R) (v wind w r : v3 R) :
  v_inf_and_rot q v wind w r = vadd (vsub wind v) (quat_inv_trans q (vcross r w)).
Proof.
  unfold v_inf_and_rot, v_rot. rewrite (vcross_anti r w). vec.
Qed.

Section Rigid.
  Variable Q : quat R.
  Hypothesis HQ : qn2 Q = 1.
  Notation O := (quat_inv_trans Q).

  Let inv_trans_opp := lin_opp O (inv_trans_scale Q).
  Let inv_trans_divs := lin_divs O (inv_trans_scale Q).
  Theorem v_inf_and_rot_rigid q v wind w r :
    v_inf_and_rot (quat_mult Q q) (O v) (O wind) w r = O (v_inf_and_rot q v wind w r).
  Proof.
    unfold v_inf_and_rot, v_rot. rewrite inv_trans_mult, !inv_trans_add, inv_trans_opp. reflexivity.
  Qed.
  Theorem joint_v_inf_rigid mp q v wind w r :
    joint_v_inf mp (quat_mult Q q) (O v) (O wind) w r = O (joint_v_inf mp q v wind w r).
  Proof.
    unfold joint_v_inf, v_rot. destruct mp; rewrite ?inv_trans_mult, !inv_trans_add, inv_trans_opp; reflexivity.
  Qed.
  Lemma unitv_rigid a : unitv (O a) = O (unitv a).
  Proof. unfold unitv. rewrite (inv_trans_norm_unit Q a HQ), inv_trans_divs. reflexivity. Qed.
  Lemma project_out_rigid z u : project_out (O z) (O u) = O (project_out z u).
  Proof. unfold project_out. rewrite (inv_trans_dot_unit Q HQ), inv_trans_sub, inv_trans_scale. reflexivity. Qed.
  Theorem trailing_dir_rigid c q vj : trailing_dir c (quat_mult Q q) (O vj) = O (trailing_dir c q vj).
  Proof.
    unfold trailing_dir, body_z. destruct c.
    - rewrite unitv_rigid, inv_trans_mult, project_out_rigid, unitv_rigid. reflexivity.
    - apply unitv_rigid.
  Qed.
End Rigid.
