(* The general (Reid-Hunsaker) corrections of airplane.py commute with a uniform scaling of the aircraft (C05) and with its reflection
   through the x-z plane (C04).  The tangents come from numpy.gradient, read here as the derivative of the parabola through three
   neighbouring nodes ([lag3], [gradient_lag3]): that it is homogeneous of degree -1 in the abscissae, linear in the nodes and odd under
   a reversal of the traversal is then one statement each about [lag3], not three about the stencils.
   At the end, the swept section vectors of wing_segment.py (Model/Swept.v), which are made like the joint direction. *)
From Coq Require Import Reals Lra List Lia.
From MuxV Require Import Base.Num Base.Vec3 Base.RInst Model.Reid Model.Swept Proofs.VecP.
Import ListNotations.
Local Open Scope R_scope.

Theorem reid_off fexp (w : list (sec R)) i : sreid i = false ->
  reid_row fexp w i = (map sP0 w, map sP1 w, map sP0 w, map sP1 w).
Proof. intro H. unfold reid_row. rewrite H. reflexivity. Qed.

Lemma blend_weight_range sigma ds : 0 <= sigma -> 0 < blend_weight exp sigma ds <= 1.
Proof.
  unfold blend_weight. rnum. split; [apply exp_pos|].
  rewrite <- exp_0. destruct (Req_dec (- sigma * ds * ds) 0) as [E|E]; [rewrite E; lra|].
  left. apply exp_increasing. assert (0 <= ds * ds) by nra. nra.
Qed.
Theorem blend_node_convex sigma PCi dPC PCsi P Ps : 0 <= sigma ->
  exists lam, 0 < lam <= 1 /\
    blend_node exp sigma PCi dPC PCsi P Ps = vadd (vscale lam (vadd PCi (vscale (Ps - PCsi) dPC))) (vscale (1 - lam) P).
Proof.
  intro Hs. exists (blend_weight exp sigma (Ps - PCsi)). split; [apply blend_weight_range; exact Hs|].
  unfold blend_node. vec.
Qed.
Theorem blend_node_at_cp sigma PCi dPC PCsi P : blend_node exp sigma PCi dPC PCsi P PCsi = PCi.
Proof.
  unfold blend_node, blend_weight. rnum. replace (- sigma * (PCsi - PCsi) * (PCsi - PCsi)) with 0 by lra. rewrite exp_0.
  vec.
Qed.

(* the claim in the comment at airplane.py 622-637 *)
Theorem joint_dir_spec (Tn ua : v3 R) : vdot Tn Tn = 1 -> vdot ua ua = 1 -> Rabs (vdot Tn ua) < 1 ->
  let u := joint_dir Tn ua in
  vdot u u = 1 /\ vdot u Tn = 0 /\ 0 < vdot u ua /\
  exists c1 c2, u = vadd (vscale c1 ua) (vscale c2 Tn).
Proof.
  intros HT Hu Hk. unfold joint_dir. rnum.
  set (k := vdot Tn ua) in *.
  assert (Hk2 : 0 < 1 - k * k) by (apply Rabs_def2 in Hk; nra).
  set (c1 := sqrt (1 / (1 - k * k))).
  assert (Hc1 : 0 < c1) by (apply sqrt_lt_R0; apply Rdiv_lt_0_compat; lra).
  assert (Hc1k : c1 * c1 * (1 - k * k) = 1) by (unfold c1; rewrite sqrt_sqrt by (apply Rlt_le, Rdiv_lt_0_compat; lra); unfold Rdiv; rewrite Rmult_1_l; apply Rinv_l; lra).
  (* before normalisation u = c1 (ua - k Tn): <u,Tn> = c1 (k - k), <u,ua> = c1 (1 - k^2), hence <u,u> = c1 <u,ua> - c1 k <u,Tn> = 1 *)
  set (u := vadd (vscale c1 ua) (vscale (- c1 * k) Tn)).
  assert (HuT : vdot u Tn = 0).
  { unfold u. rewrite vdot_add_l, !vdot_scale_l, HT, (vdot_comm ua Tn). fold k. lra. }
  assert (Hua : vdot u ua = c1 * (1 - k * k)).
  { unfold u. rewrite vdot_add_l, !vdot_scale_l, Hu. fold k. lra. }
  assert (Huu : vdot u u = 1).
  { unfold u at 2. rewrite vdot_add_r, !vdot_scale_r, HuT, Hua. lra. }
  replace (vnorm u) with 1 by (unfold vnorm, vnorm2; rewrite Huu; symmetry; apply sqrt_1).
  rewrite vdivs_1_r. repeat split; [exact Huu | exact HuT | rewrite Hua; nra | exists c1, (- c1 * k); reflexivity].
Qed.
Theorem joint_node_length P chord dj uj : vdot uj uj = 1 ->
  vdot (vsub (joint_node P chord dj uj) P) (vsub (joint_node P chord dj uj) P) = (chord * dj) * (chord * dj).
Proof.
  intro H. unfold joint_node. rewrite vsub_add_cancel, vdot_scale_l, vdot_scale_r, H. rnum. lra.
Qed.

(* numpy.gradient(f, x, edge_order=2).  The parabola through (-d1, f0), (0, f1), (d2, f2) has at t the derivative
   [lag3 t d1 d2 f0 f1 f2]; numpy's three stencils are its values at t = -d1 (first node), 0 (interior nodes) and d2 (last node),
   for the three nodes around [center n j]. *)
Definition lag3 (t d1 d2 : R) (f0 f1 f2 : v3 R) : v3 R :=
  comb3 ((2 * t - d2) / (d1 * (d1 + d2))) (- (2 * t + d1 - d2) / (d1 * d2)) ((2 * t + d1) / (d2 * (d1 + d2))) f0 f1 f2.
Definition center (n j : nat) : nat := if Nat.eqb j 0 then 1 else if Nat.eqb j (n - 1) then n - 2 else j.

(* the hypothesis has the form that one [lra] settles *)
Lemma comb3_ext a b c a' b' c' (f0 f1 f2 : v3 R) :
  (forall u v w : R, a * u + b * v + c * w = a' * u + b' * v + c' * w) -> comb3 a b c f0 f1 f2 = comb3 a' b' c' f0 f1 f2.
Proof. intro H. unfold comb3. vec_unfold; apply H. Qed.
Lemma comb3_scale s a b c (f0 f1 f2 : v3 R) : vscale s (comb3 a b c f0 f1 f2) = comb3 (s * a) (s * b) (s * c) f0 f1 f2.
Proof. unfold comb3. rewrite !vscale_add, !vscale_vscale. reflexivity. Qed.

Lemma gradient_lag3 f x j :
  let X i := nth i x 0 in let F i := nth i f vzero in let m := center (length f) j in
  gradient_at f x j = lag3 (X j - X m) (X m - X (m - 1)%nat) (X (m + 1)%nat - X m) (F (m - 1)%nat) (F m) (F (m + 1)%nat).
Proof.
  cbv beta iota zeta delta [gradient_at center lag3 nadd nsub nmul ndiv nopp nofZ n0 RNum].
  destruct (Nat.eqb_spec j 0) as [->|H0]; [|destruct (Nat.eqb_spec j (length f - 1)) as [->|H1]].
  - cbn [Nat.sub Nat.add]. apply comb3_ext. intros. lra.
  - replace (length f - 2 - 1)%nat with (length f - 3)%nat by lia. replace (length f - 2 + 1)%nat with (length f - 1)%nat by lia.
    apply comb3_ext. intros. lra.
  - apply comb3_ext. intros. lra.
Qed.

(* no hypothesis on d1, d2: [/ (k * d)] = [/ k * / d] holds for d = 0 too, so each coefficient gains the factor k / (k k),
   with [/ k] an atom; only then is k / k = 1 used *)
Lemma lag3_hom k t d1 d2 f0 f1 f2 : k <> 0 ->
  lag3 (k * t) (k * d1) (k * d2) f0 f1 f2 = vscale (/ k) (lag3 t d1 d2 f0 f1 f2).
Proof.
  intro Hk. replace (/ k) with (k * (/ k * / k)) by (rewrite <- Rmult_assoc, Rinv_r, Rmult_1_l by exact Hk; reflexivity).
  unfold lag3, Rdiv. rewrite comb3_scale, <- !Rmult_plus_distr_l, !Rinv_mult. apply comb3_ext. intros. lra.
Qed.
Lemma lag3_rev t d1 d2 f0 f1 f2 : lag3 (- t) d2 d1 f2 f1 f0 = vopp (lag3 t d1 d2 f0 f1 f2).
Proof. unfold lag3, comb3, Rdiv. rewrite (Rplus_comm d2 d1), !Rinv_mult. vec. Qed.

Lemma center_first n : center n 0 = 1%nat. Proof. reflexivity. Qed.
Lemma center_last n : (2 <= n)%nat -> center n (n - 1) = (n - 2)%nat.
Proof. unfold center. rewrite Nat.eqb_refl. destruct (Nat.eqb_spec (n - 1) 0); [lia | reflexivity]. Qed.
Lemma center_mid n j : (1 <= j)%nat -> (j <= n - 2)%nat -> center n j = j.
Proof. unfold center. destruct (Nat.eqb_spec j 0); [lia|]. destruct (Nat.eqb_spec j (n - 1)); [lia | reflexivity]. Qed.
Lemma center_range n j : (3 <= n)%nat -> (j < n)%nat -> (1 <= center n j <= n - 2)%nat.
Proof. intros Hn Hj. unfold center. destruct (Nat.eqb_spec j 0); [lia|]. destruct (Nat.eqb_spec j (n - 1)); lia. Qed.
(* by cases: one [lia] over all the tests of [center] is several times as dear to check *)
Lemma center_rev n j : (3 <= n)%nat -> (j < n)%nat -> center n (n - S j) = (n - S (center n j))%nat.
Proof.
  intros Hn Hj. destruct (Nat.eq_dec j 0) as [->|H0]; [|destruct (Nat.eq_dec j (n - 1)) as [->|H1]].
  - rewrite center_first, center_last by lia. lia.
  - rewrite center_last by lia. replace (n - S (n - 1))%nat with 0%nat by lia. rewrite center_first. lia.
  - rewrite !center_mid by lia. reflexivity.
Qed.

(* x' need only have the opposite differences, as the arc length measured from the other end has ([arclen_rev_nth]) *)
Lemma gradient_rev f x x' j : let n := length f in
  (forall a b, (a < n)%nat -> (b < n)%nat -> nth a x' 0 - nth b x' 0 = nth (n - S b) x 0 - nth (n - S a) x 0) ->
  (3 <= n)%nat -> (j < n)%nat -> gradient_at (rev f) x' j = vopp (gradient_at f x (n - S j)).
Proof.
  intros n H Hn Hj. rewrite !gradient_lag3, rev_length. fold n.
  rewrite (center_rev n j Hn Hj). pose proof (center_range n j Hn Hj) as Hm. set (m := center n j) in *.
  assert (Hb : (m - 1 < n /\ m < n /\ m + 1 < n)%nat) by lia. destruct Hb as (B0 & B1 & B2).
  rewrite !H, !rev_nth by (fold n; assumption). fold n.
  replace (n - S (m - 1))%nat with (n - S m + 1)%nat by lia. replace (n - S (m + 1))%nat with (n - S m - 1)%nat by lia.
  rewrite <- Ropp_minus_distr. apply lag3_rev.
Qed.

Lemma cumsum_scale k l : forall acc, cumsum_from (k * acc) (map (Rmult k) l) = map (Rmult k) (cumsum_from acc l).
Proof.
  induction l as [|x r IH]; intro acc; [reflexivity|]. cbn [cumsum_from map].
  rewrite <- Rmult_plus_distr_l, IH. reflexivity.
Qed.
Lemma nth_scale k j x : nth j (map (Rmult k) x) 0 = k * nth j x 0.
Proof. rewrite <- (Rmult_0_r k) at 1. apply map_nth. Qed.

Lemma arclen_step f j : (S j < length f)%nat ->
  nth (S j) (arclen f) 0 - nth j (arclen f) 0 = vnorm (vsub (nth (S j) f vzero) (nth j f vzero)).
Proof.
  unfold arclen. generalize (@n0 R _). revert j.
  induction f as [|a [|b r] IH]; intros j acc Hj; try (simpl in Hj; lia).
  cbn [diffs map cumsum_from]. destruct j as [|j]; [cbn [nth]; rnum; lra|].
  apply (IH j (acc + vnorm (vsub b a))). simpl in Hj |- *. lia.
Qed.
Lemma arclen_rev_nth f i : (i < length f)%nat ->
  nth i (arclen (rev f)) 0 = nth (length f - 1) (arclen f) 0 - nth (length f - S i) (arclen f) 0.
Proof.
  set (n := length f). induction i as [|i IH]; intro Hi; [cbn [arclen nth]; rnum; lra|].
  pose proof (arclen_step (rev f) i) as H1. pose proof (arclen_step f (n - S (S i))) as H2.
  rewrite rev_length, !rev_nth, vnorm_sub_comm in H1 by (fold n; lia). fold n in H1.
  replace (S (n - S (S i))) with (n - S i)%nat in H2 by lia.
  rewrite <- H2, IH in H1 by (fold n; lia). specialize (H1 Hi). lra.
Qed.

Section Sim.
  Variables (O : v3 R -> v3 R) (k : R).
  Hypothesis O_add : forall a b, O (vadd a b) = vadd (O a) (O b).
  Hypothesis O_scale : forall c a, O (vscale c a) = vscale c (O a).
  Hypothesis O_len : forall a, vnorm (O a) = k * vnorm a.
  Hypothesis kpos : 0 < k.

  Lemma nth_lin j f : nth j (map O f) vzero = O (nth j f vzero).
  Proof. rewrite <- (lin_zero O O_scale) at 1. apply map_nth. Qed.
  Lemma comb3_lin a b c f0 f1 f2 : O (comb3 a b c f0 f1 f2) = comb3 a b c (O f0) (O f1) (O f2).
  Proof. unfold comb3. rewrite !O_add, !O_scale. reflexivity. Qed.
  Lemma diffs_lin l : diffs (map O l) = map O (diffs l).
  Proof.
    induction l as [|a [|b r] IH]; [reflexivity..|].
    cbn [diffs map] in *. rewrite IH, (lin_sub O O_add O_scale). reflexivity.
  Qed.
  Lemma arclen_sim pts : arclen (map O pts) = map (Rmult k) (arclen pts).
  Proof.
    unfold arclen. rewrite diffs_lin, map_map, (map_ext _ _ O_len), <- map_map. cbn [map].
    rewrite <- cumsum_scale, Rmult_0_r. reflexivity.
  Qed.
  Lemma gradient_sim f x j : gradient_at (map O f) (map (Rmult k) x) j = vscale (/ k) (O (gradient_at f x j)).
  Proof.
    rewrite !gradient_lag3, map_length. rewrite !nth_lin, !nth_scale, <- !Rmult_minus_distr_l, lag3_hom by lra.
    unfold lag3. rewrite comb3_lin. reflexivity.
  Qed.
  Lemma unit_tangents_sim pts : unit_tangents (map O pts) = map (fun t => vscale (/ k) (O t)) (unit_tangents pts).
  Proof.
    unfold unit_tangents. rewrite arclen_sim, map_length, map_map. apply map_ext. intro j. rewrite gradient_sim.
    rewrite vnorm_scale by (left; apply Rinv_0_lt_compat, kpos). rewrite O_len, <- Rmult_assoc, Rinv_l, Rmult_1_l by lra.
    rewrite (lin_divs O O_scale), !vdivs_as_vscale. apply vscale_comm.
  Qed.
End Sim.

Lemma unit_tangents_length pts : length (unit_tangents pts) = length pts.
Proof. unfold unit_tangents. rewrite map_length. apply seq_length. Qed.
Lemma rev_map_seq {A} (g : nat -> A) n : rev (map g (seq 0 n)) = map (fun j => g (n - S j)%nat) (seq 0 n).
Proof.
  induction n as [|n IH]; [reflexivity|].
  rewrite seq_S at 1. rewrite map_app, rev_app_distr, IH. cbn [rev map app seq]. rewrite <- seq_shift, map_map.
  do 2 f_equal. lia.
Qed.
Theorem unit_tangents_rev f : (3 <= length f)%nat -> unit_tangents (rev f) = rev (map vopp (unit_tangents f)).
Proof.
  intro Hn. unfold unit_tangents. rewrite rev_length, map_map, rev_map_seq. apply map_ext_in. intros j Hj%in_seq.
  rewrite (gradient_rev f (arclen f)) by (try lia; intros; rewrite !arclen_rev_nth by assumption; lra).
  rewrite vnorm_opp. apply vdivs_opp.
Qed.

Lemma joints_map (a b c O : v3 R -> v3 R) (s : R -> R) :
  (forall P t u ch d, joint_node (a P) (s ch) d (joint_dir (b t) (c u)) = O (joint_node P ch d (joint_dir t u))) ->
  forall e tg uas ch dj, joints (map a e) (map b tg) (map c uas) (map s ch) dj = map O (joints e tg uas ch dj).
Proof.
  intro H. induction e as [|P e IH]; intros [|t tg] [|u uas] [|c0 ch] [|d dj]; [reflexivity..|].
  cbn [joints map]. rewrite IH, H. reflexivity.
Qed.
Lemma joints_zip e : forall tg uas ch dj, joints e tg uas ch dj =
  map (fun q => let '(P, (t, (u, (c, d)))) := q in joint_node P c d (joint_dir t u)) (combine e (combine tg (combine uas (combine ch dj)))).
Proof.
  induction e as [|P e IH]; intros tg uas ch dj; [reflexivity|].
  destruct tg as [|t tg]; [reflexivity|]. destruct uas as [|u uas]; [reflexivity|].
  destruct ch as [|c ch]; [reflexivity|]. destruct dj as [|d dj]; [reflexivity|].
  cbn [joints combine map]. rewrite IH. reflexivity.
Qed.
Lemma joints_length e : forall tg uas ch dj,
  length tg = length e -> length uas = length e -> length ch = length e -> length dj = length e -> length (joints e tg uas ch dj) = length e.
Proof. intros tg uas ch dj H1 H2 H3 H4. rewrite joints_zip, map_length, !combine_length, H1, H2, H3, H4, !Nat.min_id. reflexivity. Qed.
Lemma joints_rev e tg uas ch dj :
  length tg = length e -> length uas = length e -> length ch = length e -> length dj = length e ->
  joints (rev e) (rev tg) (rev uas) (rev ch) (rev dj) = rev (joints e tg uas ch dj).
Proof.
  intros H1 H2 H3 H4. rewrite !joints_zip, !combine_rev, map_rev by (rewrite ?combine_length, ?H1, ?H2, ?H3, ?H4, ?Nat.min_id; reflexivity). reflexivity.
Qed.

(* a row is two lines made in the same way, one from the inbound and one from the outbound nodes *)
Definition eline (i : sec R) (w : list (sec R)) (P : sec R -> v3 R) (Ps : sec R -> R) : list (v3 R) :=
  map (fun j => blend_node exp (ssig i) (sPC i) (pc_deriv (sus i)) (sPCs i) (P j) (Ps j)) w.
Definition euas (i : sec R) (w : list (sec R)) : list (v3 R) :=
  map (fun j => blend_ua exp (ssig i) (sua i) (sPCs i) (sua j) (sPCs j)) w.
Definition half_row (i : sec R) (w : list (sec R)) (P : sec R -> v3 R) (Ps c : sec R -> R) : list (v3 R) * list (v3 R) :=
  let e := eline i w P Ps in (e, joints e (unit_tangents e) (euas i w) (map c w) (map sdj w)).
Lemma reid_on w i : sreid i = true ->
  reid_row exp w i = let '(e0, j0) := half_row i w sP0 sP0s sc0 in let '(e1, j1) := half_row i w sP1 sP1s sc1 in (e0, e1, j0, j1).
Proof. intro H. unfold reid_row. rewrite H. reflexivity. Qed.

(* uniform scaling (dynamic similarity, C05): every length x k, the blending parameter / k^2, directions unchanged *)
Lemma sigma_blend_scale k b bd cs : sigma_blend (k * b) bd cs = sigma_blend b bd cs / (k * k).
Proof. unfold sigma_blend. rnum. unfold Rdiv. rewrite !Rinv_mult. lra. Qed.

Section Scale.
  Variable k : R.
  Hypothesis kpos : 0 < k.

  Definition sec_scale (s : sec R) : sec R :=
    mk_sec (vscale k (sPC s)) (k * sPCs s) (vscale k (sP0 s)) (k * sP0s s) (vscale k (sP1 s)) (k * sP1s s) (sus s) (sua s)
           (k * sc0 s) (k * sc1 s) (sdj s) (ssig s / (k * k)) (sreid s).

  Lemma blend_weight_scale sigma ds : blend_weight exp (sigma / (k * k)) (k * ds) = blend_weight exp sigma ds.
  Proof.
    unfold blend_weight, Rdiv. rnum. f_equal.
    replace (- (sigma * / (k * k)) * (k * ds) * (k * ds)) with (- sigma * ds * ds * (k * k * / (k * k))) by lra.
    rewrite Rinv_r by nra. apply Rmult_1_r.
  Qed.
  Lemma blend_node_scale sigma PCi dPC PCsi P Ps :
    blend_node exp (sigma / (k * k)) (vscale k PCi) dPC (k * PCsi) (vscale k P) (k * Ps) = vscale k (blend_node exp sigma PCi dPC PCsi P Ps).
  Proof. unfold blend_node. rewrite <- Rmult_minus_distr_l, blend_weight_scale. vec. Qed.
  Lemma blend_ua_scale sigma uai PCsi uaj PCsj :
    blend_ua exp (sigma / (k * k)) uai (k * PCsi) uaj (k * PCsj) = blend_ua exp sigma uai PCsi uaj PCsj.
  Proof. unfold blend_ua. rewrite <- Rmult_minus_distr_l, blend_weight_scale. reflexivity. Qed.
  Lemma unit_tangents_scale pts : unit_tangents (map (vscale k) pts) = unit_tangents pts.
  Proof.
    rewrite (unit_tangents_sim (vscale k) k (vscale_add k) (fun c => vscale_comm c k) (fun a => vnorm_scale k a (Rlt_le _ _ kpos)) kpos).
    rewrite <- map_id. apply map_ext. intro t. rewrite vscale_vscale, Rinv_l, vscale_1_l by lra. reflexivity.
  Qed.
  Lemma joint_node_scale P c dj u : joint_node (vscale k P) (k * c) dj u = vscale k (joint_node P c dj u).
  Proof. unfold joint_node. rewrite vscale_add, vscale_vscale, Rmult_assoc. reflexivity. Qed.

  Lemma eline_scale i w P Ps : (forall j, P (sec_scale j) = vscale k (P j)) -> (forall j, Ps (sec_scale j) = k * Ps j) ->
    eline (sec_scale i) (map sec_scale w) P Ps = map (vscale k) (eline i w P Ps).
  Proof. intros HP HPs. unfold eline. rewrite !map_map. apply map_ext. intro j. rewrite HP, HPs. apply blend_node_scale. Qed.
  Lemma euas_scale i w : euas (sec_scale i) (map sec_scale w) = euas i w.
  Proof. unfold euas. rewrite map_map. apply map_ext. intro j. apply blend_ua_scale. Qed.
  Lemma half_row_scale i w P Ps c :
    (forall j, P (sec_scale j) = vscale k (P j)) -> (forall j, Ps (sec_scale j) = k * Ps j) -> (forall j, c (sec_scale j) = k * c j) ->
    half_row (sec_scale i) (map sec_scale w) P Ps c = let '(e, j) := half_row i w P Ps c in (map (vscale k) e, map (vscale k) j).
  Proof.
    intros HP HPs Hc. unfold half_row. rewrite eline_scale, euas_scale, unit_tangents_scale, !map_map, (map_ext _ _ Hc), <- (map_map c) by assumption.
    rewrite <- (joints_map (vscale k) (fun t => t) (fun u => u) (vscale k) (Rmult k)), !map_id by (intros; apply joint_node_scale). reflexivity.
  Qed.

  Definition scale4 (r : list (v3 R) * list (v3 R) * list (v3 R) * list (v3 R)) :=
    let '(a, b, c, d) := r in (map (vscale k) a, map (vscale k) b, map (vscale k) c, map (vscale k) d).

  Theorem reid_row_scale w i : reid_row exp (map sec_scale w) (sec_scale i) = scale4 (reid_row exp w i).
  Proof.
    destruct (sreid i) eqn:E.
    - rewrite !reid_on, !half_row_scale by (exact E || reflexivity).
      destruct (half_row i w sP0 sP0s sc0), (half_row i w sP1 sP1s sc1). reflexivity.
    - rewrite !reid_off by exact E. cbn [scale4]. rewrite !map_map. reflexivity.
  Qed.
End Scale.

(* mirror image (C04): the wing reflected through the x-z plane, sections in reverse order *)
Definition Mv (p : v3 R) : v3 R := V3 (vx p) (- vy p) (vz p).      (* = [vmir]: its laws [vmir_add vmir_scale vmir_dot] apply as they are *)
Definition nMv (p : v3 R) : v3 R := V3 (- vx p) (vy p) (- vz p).
Lemma nMv_opp a : nMv a = vopp (Mv a). Proof. unfold nMv, Mv. vec. Qed.

(* reflection maps the tangents, the reversal negates them *)
Theorem unit_tangents_mirror f : (3 <= length f)%nat -> unit_tangents (rev (map Mv f)) = rev (map nMv (unit_tangents f)).
Proof.
  intro Hn. rewrite unit_tangents_rev by (rewrite map_length; exact Hn).
  rewrite (unit_tangents_sim Mv 1 vmir_add vmir_scale) by (intros; rewrite ?(isom_norm Mv vmir_dot); lra).
  rewrite map_map. f_equal. apply map_ext. intro t. rewrite Rinv_1, vscale_1_l. symmetry. apply nMv_opp.
Qed.

Lemma pc_deriv_mirror us : pc_deriv (nMv us) = nMv (pc_deriv us).
Proof. unfold pc_deriv, nMv. vec_unfold; rewrite Rmult_opp_opp; lra. Qed.
Lemma blend_weight_neg sigma ds : blend_weight exp sigma (- ds) = blend_weight exp sigma ds.
Proof. unfold blend_weight. rnum. f_equal. lra. Qed.
Lemma blend_node_mirror L sigma PCi dPC PCsi P Ps :
  blend_node exp sigma (Mv PCi) (nMv dPC) (L - PCsi) (Mv P) (L - Ps) = Mv (blend_node exp sigma PCi dPC PCsi P Ps).
Proof.
  unfold blend_node. rnum. replace (L - Ps - (L - PCsi)) with (- (Ps - PCsi)) by lra. rewrite blend_weight_neg.
  (* ds is negated and [nMv dPC] is minus the image of dPC: their product is the image of dPC ds *)
  unfold Mv, nMv. vec.
Qed.
Lemma blend_ua_mirror L sigma uai PCsi uaj PCsj :
  blend_ua exp sigma (Mv uai) (L - PCsi) (Mv uaj) (L - PCsj) = Mv (blend_ua exp sigma uai PCsi uaj PCsj).
Proof.
  unfold blend_ua. rnum. replace (L - PCsj - (L - PCsi)) with (- (PCsj - PCsi)) by lra. rewrite blend_weight_neg.
  rewrite <- !(lin_scaler Mv vmir_scale), <- vmir_add, (isom_norm Mv vmir_dot), (lin_divs Mv vmir_scale). reflexivity.
Qed.
(* the joint direction does not depend on the sense of the tangent *)
Lemma joint_dir_mirror Tn ua : joint_dir (nMv Tn) (Mv ua) = Mv (joint_dir Tn ua).
Proof.
  unfold joint_dir. rnum. rewrite nMv_opp, vdot_opp_l, vmir_dot, Rmult_opp_opp.
  set (k := vdot Tn ua). set (c1 := sqrt (1 / (1 - k * k))).
  replace (vadd (vscale c1 (Mv ua)) (vscale (- c1 * - k) (vopp (Mv Tn)))) with (Mv (vadd (vscale c1 ua) (vscale (- c1 * k) Tn)))
    by (rewrite vmir_add, !vmir_scale, vopp_as_vscale, vscale_vscale; do 2 f_equal; lra).
  rewrite (isom_norm Mv vmir_dot), (lin_divs Mv vmir_scale). reflexivity.
Qed.
Lemma joint_node_mirror P c d u : joint_node (Mv P) c d (Mv u) = Mv (joint_node P c d u).
Proof. unfold joint_node. rewrite vmir_add, vmir_scale. reflexivity. Qed.

(* inbound and outbound node change places, the span coordinate is measured from the other tip; the span vector [sus] is reflected
   and, to point left to right again, negated *)
Definition sec_mirror (L : R) (s : sec R) : sec R :=
  mk_sec (Mv (sPC s)) (L - sPCs s) (Mv (sP1 s)) (L - sP1s s) (Mv (sP0 s)) (L - sP0s s) (nMv (sus s)) (Mv (sua s))
         (sc1 s) (sc0 s) (sdj s) (ssig s) (sreid s).
Definition mirror4 (r : list (v3 R) * list (v3 R) * list (v3 R) * list (v3 R)) :=
  let '(e0, e1, j0, j1) := r in (rev (map Mv e1), rev (map Mv e0), rev (map Mv j1), rev (map Mv j0)).

Lemma eline_mirror L i w P Ps P' Ps' : (forall j, P' (sec_mirror L j) = Mv (P j)) -> (forall j, Ps' (sec_mirror L j) = L - Ps j) ->
  eline (sec_mirror L i) (rev (map (sec_mirror L) w)) P' Ps' = rev (map Mv (eline i w P Ps)).
Proof.
  intros HP HPs. unfold eline. rewrite map_rev, !map_map. f_equal. apply map_ext. intro j. rewrite HP, HPs.
  cbn [sec_mirror sus]. rewrite pc_deriv_mirror. apply blend_node_mirror.
Qed.
Lemma euas_mirror L i w : euas (sec_mirror L i) (rev (map (sec_mirror L) w)) = rev (map Mv (euas i w)).
Proof. unfold euas. rewrite map_rev, !map_map. f_equal. apply map_ext. intro j. apply blend_ua_mirror. Qed.
Lemma half_row_mirror L i w P Ps c P' Ps' c' : (3 <= length w)%nat ->
  (forall j, P' (sec_mirror L j) = Mv (P j)) -> (forall j, Ps' (sec_mirror L j) = L - Ps j) -> (forall j, c' (sec_mirror L j) = c j) ->
  half_row (sec_mirror L i) (rev (map (sec_mirror L) w)) P' Ps' c' = let '(e, j) := half_row i w P Ps c in (rev (map Mv e), rev (map Mv j)).
Proof.
  intros Hn HP HPs Hc. unfold half_row. rewrite (eline_mirror L i w P Ps), euas_mirror by assumption.
  rewrite unit_tangents_mirror by (unfold eline; rewrite map_length; exact Hn).
  rewrite !map_rev, !map_map, (map_ext _ _ Hc).
  rewrite joints_rev by (unfold eline, euas; rewrite ?map_length, ?unit_tangents_length, ?map_length; reflexivity).
  rewrite <- (joints_map Mv nMv Mv Mv (fun x => x)), map_id by (intros; rewrite joint_dir_mirror; apply joint_node_mirror).
  reflexivity.
Qed.

Theorem reid_row_mirror L w i : (3 <= length w)%nat ->
  reid_row exp (rev (map (sec_mirror L) w)) (sec_mirror L i) = mirror4 (reid_row exp w i).
Proof.
  intro Hn. destruct (sreid i) eqn:E.
  - rewrite !reid_on by exact E.
    rewrite (half_row_mirror L i w sP1 sP1s sc1 sP0), (half_row_mirror L i w sP0 sP0s sc0 sP1) by (exact Hn || reflexivity).
    destruct (half_row i w sP0 sP0s sc0), (half_row i w sP1 sP1s sc1). reflexivity.
  - rewrite !reid_off by exact E. cbn [mirror4]. rewrite !map_rev, !map_map. reflexivity.
Qed.

(* the swept section vectors form an orthonormal triad (C12): [swept_axial] is [joint_dir], and the normal vector, axial x span,
   completes the triad *)
Lemma triad_complete (ua us : v3 R) : vdot ua ua = 1 -> vdot us us = 1 -> vdot ua us = 0 ->
  let un := vcross ua us in vdot un un = 1 /\ vdot un ua = 0 /\ vdot un us = 0.
Proof.
  intros Ha Hs H. split; [exact (vnorm2_cross_orth ua us Ha Hs H)|].
  split; rewrite vdot_comm; [apply vdot_cross_l | apply vdot_cross_r].
Qed.

Theorem swept_triad (us ua0 : v3 R) : vdot us us = 1 -> vdot ua0 ua0 = 1 -> Rabs (vdot us ua0) < 1 ->
  let ua := swept_axial us ua0 in
  let un := swept_normal ua us in
  vdot ua ua = 1 /\ vdot un un = 1 /\ vdot us us = 1 /\
  vdot ua us = 0 /\ vdot un ua = 0 /\ vdot un us = 0 /\
  0 < vdot ua ua0 /\ (exists c1 c2, ua = vadd (vscale c1 ua0) (vscale c2 us)).
Proof.
  intros Hs Ha Hk. destruct (joint_dir_spec us ua0 Hs Ha Hk) as [H1 [H2 [H3 H4]]].
  destruct (triad_complete _ _ H1 Hs H2) as [T1 [T2 T3]]. repeat split; assumption.
Qed.

(* the hypotheses: the interpolated span vector does not vanish and the interpolated axial vector is not parallel to it *)
Theorem cp_triad_orthonormal xs uas uss s :
  let us0 := interp_vec xs uss s in
  let ua0 := interp_vec xs uas s in
  vdot us0 us0 <> 0 ->
  (let us := vdivs us0 (vnorm us0) in let ua1 := vsub ua0 (vscale (vdot ua0 us) us) in vdot ua1 ua1 <> 0) ->
  let '(ua, un, us) := cp_triad xs uas uss s in
  vdot ua ua = 1 /\ vdot un un = 1 /\ vdot us us = 1 /\ vdot ua us = 0 /\ vdot un ua = 0 /\ vdot un us = 0.
Proof.
  intros us0 ua0 Hs Ha. unfold cp_triad. fold us0 ua0.
  pose proof (vnorm2_normalized _ Hs) as Hus. pose proof (vnorm2_normalized _ Ha) as Hua.
  set (us := vdivs us0 (vnorm us0)) in *. set (ua1 := vsub ua0 (vscale (vdot ua0 us) us)) in *.
  assert (Horth : vdot (vdivs ua1 (vnorm ua1)) us = 0).
  { rewrite vdot_divs_l. unfold ua1. rewrite gram_schmidt_orth by exact Hus. apply Rmult_0_l. }
  destruct (triad_complete _ _ Hua Hus Horth) as [T1 [T2 T3]]. repeat split; assumption.
Qed.
