(* C07: cache coherence of the Scene state machine for all call histories. *)
From Coq Require Import List Bool Arith.
From MuxV Require Import Model.SceneFSM.
Import ListNotations.

Definition I1 (s : scene) : Prop := geo s = geo_of (acs s).
Definition I2 (s : scene) : Prop := solved s = true -> snap s = acs s.
Definition Inv (s : scene) : Prop := I1 s /\ I2 s.
Definition all_fresh (os : list output) : Prop := Forall fresh os.

Lemma unsolved_I2 s : solved s = false -> I2 s.
Proof. unfold I2. intros ->. discriminate. Qed.

Lemma geo_of_upd n f l : (forall a, get n l = Some a -> geo_of [f a] = geo_of [a]) -> geo_of (upd n f l) = geo_of l.
Proof.
  intro Hf. induction l as [|a r IH]; [reflexivity|]. cbn [upd get] in *. destruct (Nat.eqb (a_name a) n).
  - exact (f_equal (fun g => g ++ geo_of r) (Hf a eq_refl)).
  - exact (f_equal (cons _) (IH Hf)).
Qed.

(* Between two primitives one of three things is known of the scene: nothing; that the geometry cache is current (I1); that the stored
   solution is current as well (Inv).  A primitive [needs] one of these for its output to be fresh and leaves behind what it [gives].
   On the sequence an operation is made of, [track] computes: the [reflexivity]s in [step_inv]. *)
Inductive know := Nothing | Geo | All.
Definition holds (k : know) (s : scene) : Prop := match k with Nothing => True | Geo => I1 s | All => Inv s end.
Definition know_le (a b : know) : bool := match a, b with Nothing, _ | Geo, (Geo | All) | All, All => true | _, _ => false end.
Definition needs (p : prim) : know := match p with PSetPoseVel _ _ _ | PRefresh => Nothing | PEnsureSolved => All | _ => Geo end.
Definition gives (p : prim) : know := match p with PSetPoseVel _ _ _ => Nothing | PSetVel _ _ | PSetCtrl _ _ => Geo | _ => All end.
Fixpoint track (k : know) (ps : list prim) : option know :=
  match ps with [] => Some k | p :: r => if know_le (needs p) k then track (gives p) r else None end.

Lemma holds_le a b s : know_le a b = true -> holds b s -> holds a s.
Proof. destruct a, b; try discriminate; intros _; cbn; unfold Inv; tauto. Qed.

(* a result [r] = (scene, answers) yields [P]: the scene satisfies [P] and every answer is fresh *)
Definition yields (P : scene -> Prop) (r : scene * list output) : Prop := P (fst r) /\ all_fresh (snd r).

Lemma yields_bind P Q r (k : scene -> scene * list output) : yields P r -> (forall s, P s -> yields Q (k s)) ->
  yields Q (let '(s1, o1) := r in let '(s2, o2) := k s1 in (s2, o1 ++ o2)).
Proof.
  destruct r as [s1 o1]. intros [H1 F1] Hk. destruct (Hk s1 H1) as [H2 F2]. destruct (k s1) as [s2 o2].
  split; [exact H2 | apply Forall_app; split; assumption].
Qed.

Lemma solve_sound s : I1 s -> yields Inv (pstep s PSolve).
Proof. intro H. split; [split; [exact H | intro; reflexivity] | repeat constructor; exact H]. Qed.
Lemma pstep_sound s p : holds (needs p) s -> yields (holds (gives p)) (pstep s p).
Proof.
  unfold yields. destruct p; cbn [needs gives holds]; intro H.
  - split; [|constructor]. unfold I1 in *. cbn. rewrite geo_of_upd; [exact H | reflexivity].
  - split; [|constructor]. unfold I1 in *. cbn. rewrite geo_of_upd; [exact H | reflexivity].
  - split; constructor.
  - split; [split; [reflexivity | apply unsolved_I2; reflexivity] | constructor].
  - split; [split; [exact H | apply unsolved_I2; reflexivity] | constructor].
  - apply solve_sound, H.
  - cbn [pstep]. destruct (solved s); [split; [exact H | constructor] | apply solve_sound, H].
Qed.
Lemma prun_sound ps : forall k k' s, track k ps = Some k' -> holds k s -> yields (holds k') (prun s ps).
Proof.
  induction ps as [|p r IH]; intros k k' s; cbn [track prun].
  - intros [= <-] H. split; [exact H | constructor].
  - destruct (know_le (needs p) k) eqn:L; [|discriminate]. intros T H.
    apply (yields_bind (holds (gives p))); [apply pstep_sound, (holds_le _ _ _ L H) | intros s1; apply IH, T].
Qed.

Lemma track_app k a b : track k (a ++ b) = match track k a with Some k' => track k' b | None => None end.
Proof.
  revert k; induction a as [|p r IH]; intro k; cbn [app track]; [reflexivity|].
  destruct (know_le (needs p) k); [apply IH | reflexivity].
Qed.
Lemma track_loop {A} k (f : A -> list prim) l : (forall x, track k (f x) = Some k) -> track k (flat_map f l) = Some k.
Proof. intro H. induction l as [|x l IH]; cbn [flat_map]; [reflexivity|]. rewrite track_app, H. exact IH. Qed.

(* the analyses: perturbed states visited and solved one after the other, then the state read at entry put back *)
Lemma perturb_restore {A} (f : A -> list prim) l back s :
  (forall x, track All (f x) = Some All) -> track All back = Some All -> Inv s -> yields Inv (prun s (flat_map f l ++ back)).
Proof. intros Hf Hb. apply (prun_sound _ All All). rewrite track_app, track_loop; assumption. Qed.

Lemma error_inv s : Inv s -> yields Inv (s, [OError]).
Proof. intro H. split; [exact H | repeat constructor]. Qed.
Lemma ensure_solved s : solved (fst (prun s [PEnsureSolved])) = true.
Proof. cbn [prun pstep]. destruct (solved s) eqn:E; [exact E | reflexivity]. Qed.

Theorem step_inv s o : Inv s -> yields Inv (step s o).
Proof.
  intros H. destruct o; cbn [step];
    (* the four analyses, wherever they stand among the constructors; on the other operations [perturb_restore] does not apply *)
    try (destruct (get n (acs s)) as [a|]; [apply perturb_restore; [reflexivity | reflexivity | exact H] | apply error_inv, H]).
  - (* AddAircraft *)
    apply (prun_sound _ Nothing All); [reflexivity | exact I].
  - (* RemoveAircraft *)
    destruct (has_name n (acs s)); [|apply error_inv, H]. cbn [acs]. destruct (del n (acs s)).
    + split; [split; [reflexivity | apply unsolved_I2; reflexivity] | constructor].
    + apply (prun_sound _ Nothing All); [reflexivity | exact I].
  - (* SetState *)
    destruct (get n (acs s)) as [a|] eqn:G; [|apply error_inv, H].
    destruct (Nat.eqb_spec (a_pose a) pose) as [E|_]; [|apply (prun_sound _ All All); [reflexivity | exact H]].
    (* the pose is not a new one: no refresh, and none is needed *)
    split; [split; [|apply unsolved_I2; reflexivity] | constructor].
    unfold I1. cbn [app prun pstep fst acs geo]. rewrite geo_of_upd; [apply H|].
    intros a' G'. rewrite G in G'. injection G' as <-. rewrite <- E. reflexivity.
  - (* SetControls *)
    destruct (has_name n (acs s)); [|apply error_inv, H]. apply (prun_sound _ All All); [reflexivity | exact H].
  - (* SolveForces *)
    destruct (acs s); [apply error_inv, H|]. apply (prun_sound _ All All); [reflexivity | exact H].
  - (* Distributions: the stored section data are those of a solution that is there *)
    destruct (acs s); [apply error_inv, H|].
    destruct (prun_sound [PEnsureSolved] All All s eq_refl H) as [[H1 H2] F]. pose proof (ensure_solved s) as Hs.
    destruct (prun s [PEnsureSolved]) as [s1 o1].
    split; [split; assumption|]. apply Forall_app; split; [exact F|]. constructor; [split; [apply H2, Hs | exact H1] | constructor].
Qed.

(* the conclusion is [yields Inv (run s os)] written out *)
Theorem run_inv os : forall s, Inv s -> Inv (fst (run s os)) /\ all_fresh (snd (run s os)).
Proof.
  induction os as [|o r IH]; intros s H; [split; [assumption|constructor]|].
  exact (yields_bind Inv Inv _ _ (step_inv s o H) IH).
Qed.
Lemma init_inv : Inv init.
Proof. split; [reflexivity | apply unsolved_I2; reflexivity]. Qed.

Lemma del_app n l m : has_name n l = false -> del n (l ++ m) = l ++ del n m.
Proof.
  induction l as [|b r IH]; intros Hf; [reflexivity|]. apply orb_false_iff in Hf. destruct Hf as [H1 H2].
  cbn [app del]. rewrite H1, IH by assumption. reflexivity.
Qed.
(* C13 *)
Theorem add_remove_identity s a : Inv s -> has_name (a_name a) (acs s) = false ->
  let s' := fst (run s [AddAircraft a; RemoveAircraft (a_name a)]) in
  acs s' = acs s /\ Inv s'.
Proof.
  intros Hinv Hf. split; [|apply run_inv; assumption].
  (* removing the name leaves the list as it is before [a] is appended, and takes [a] away again afterwards *)
  pose proof (del_app _ _ [] Hf) as D0. pose proof (del_app _ _ [a] Hf) as D1.
  cbn [del] in D0, D1. rewrite Nat.eqb_refl in D1. rewrite !app_nil_r in D0, D1.
  cbn [run step]. rewrite D0.
  cbn [prun pstep fst snd acs geo solved snap app].
  assert (Hh : has_name (a_name a) (acs s ++ [a]) = true).
  { clear. induction (acs s) as [|b r IH]; cbn; [rewrite Nat.eqb_refl; reflexivity|rewrite IH; apply orb_true_r]. }
  rewrite Hh, D1.
  destruct (acs s); reflexivity.
Qed.
