(* The span-wise grids of wing_segment.py (C12): cosine-clustered nodes and control points interleave and increase, the linear grid
   is equally spaced; the control points allotted to the segments add up to the number asked for; the trapezoid areas add up. *)
From Coq Require Import Reals Lra List Lia.
From MuxV Require Import Base.RInst Model.Grid.
Import ListNotations.
Local Open Scope R_scope.

Lemma ofnat_INR k : @ofnat R RNum k = INR k.
Proof. unfold ofnat. symmetry. apply INR_IZR_INZ. Qed.

(* holds for num = 1 too, where NumPy does not divide and the one sample is [start] *)
Lemma linspace_step start stop step num k : (k < num)%nat -> stop = start + (INR num - 1) * step ->
  linspace start stop num k = start + INR k * step.
Proof.
  intros Hk ->. unfold linspace. rewrite !ofnat_INR. rnum. destruct (Nat.leb num 1) eqn:E1.
  - apply Nat.leb_le in E1. replace k with 0%nat by lia. replace num with 1%nat by lia. cbn [INR]. ring.
  - apply Nat.leb_gt in E1. pose proof (lt_INR _ _ E1) as Hn. rewrite minus_INR by lia. cbn [INR] in *.
    destruct (Nat.eqb k (num - 1)) eqn:E.
    + apply Nat.eqb_eq in E. subst k. rewrite minus_INR by lia. cbn [INR]. ring.
    + field. lra.
Qed.

Lemma nth_map_seq {A} (f : nat -> A) m k d : (k < m)%nat -> nth k (map f (seq 0 m)) d = f k.
Proof.
  intros Hk. rewrite (nth_indep _ d (f 0%nat)) by (rewrite map_length, seq_length; exact Hk).
  rewrite map_nth, seq_nth by exact Hk. reflexivity.
Qed.

Definition nodeF := node_frac cos PI (1/2).
Definition cpF := cp_frac cos PI (1/2).

Lemma node_frac_R n k : (1 <= n)%nat -> (k <= n)%nat -> nodeF n k = (1 - cos (INR k * (PI / INR n))) / 2.
Proof.
  intros Hn Hk. assert (Hpos : 0 < INR n) by (apply lt_0_INR; lia). unfold nodeF, node_frac.
  rewrite (linspace_step _ _ (PI / INR n)) by (try lia; rewrite plus_INR; cbn [INR]; rnum; field; lra).
  rnum. rewrite Rplus_0_l. unfold Rdiv. ring.
Qed.
Lemma cp_frac_R n k : (k < n)%nat -> cpF n k = (1 - cos ((INR k + 1 / 2) * (PI / INR n))) / 2.
Proof.
  intros Hk. assert (Hpos : 0 < INR n) by (apply lt_0_INR; lia). unfold cpF, cp_frac. rewrite !ofnat_INR. rnum.
  rewrite (linspace_step _ _ (PI / INR n)) by (try lia; field; lra).
  replace (PI / INR n + INR k * (PI / INR n) - PI / (2 * INR n)) with ((INR k + 1 / 2) * (PI / INR n)) by (field; lra).
  unfold Rdiv. ring.
Qed.

Lemma cos_spacing_lt n s t : 0 <= s -> s < t -> t <= INR n ->
  (1 - cos (s * (PI / INR n))) / 2 < (1 - cos (t * (PI / INR n))) / 2.
Proof.
  intros Hs Hst Ht. assert (Hw : 0 < PI / INR n) by (apply Rdiv_lt_0_compat; [apply PI_RGT_0|lra]).
  assert (Hpi : INR n * (PI / INR n) = PI) by (field; lra).
  set (w := PI / INR n) in *.
  pose proof (Rmult_le_pos s w Hs (Rlt_le _ _ Hw)). pose proof (Rmult_lt_compat_r w s t Hw Hst).
  pose proof (Rmult_le_compat_r w t (INR n) (Rlt_le _ _ Hw) Ht).
  pose proof (cos_decreasing_1 (s * w) (t * w)). lra.
Qed.

Theorem section_interleaved n k : (1 <= n)%nat -> (k < n)%nat ->
  nodeF n k < cpF n k < nodeF n (S k).
Proof.
  intros Hn Hk. rewrite !node_frac_R, cp_frac_R, S_INR by lia.
  pose proof (pos_INR k). assert (INR k + 1 <= INR n) by (rewrite <- S_INR; apply le_INR; lia).
  split; apply cos_spacing_lt; lra.
Qed.
Theorem section_ends n : (1 <= n)%nat -> nodeF n 0 = 0 /\ nodeF n n = 1.
Proof.
  intros Hn. rewrite !node_frac_R by lia. split.
  - rewrite Rmult_0_l, cos_0. lra.
  - replace (INR n * (PI / INR n)) with PI by (field; apply not_0_INR; lia). rewrite cos_PI. lra.
Qed.
Theorem section_nodes_increasing n k : (1 <= n)%nat -> (k < n)%nat -> nodeF n k < nodeF n (S k).
Proof. intros Hn Hk. pose proof (section_interleaved n k Hn Hk). lra. Qed.

Theorem linear_grid_R n : (1 <= n)%nat ->
  linear_grid (T:=R) n = (map (fun k => INR k / INR n) (seq 0 (n + 1)), map (fun k => (2 * INR k + 1) / (2 * INR n)) (seq 0 n)).
Proof.
  intros Hn. assert (Hpos : 0 < INR n) by (apply lt_0_INR; lia). unfold linear_grid. rewrite !ofnat_INR. rnum.
  f_equal; apply map_ext_in; intros k Hk; apply in_seq in Hk.
  - rewrite (linspace_step _ _ (1 / INR n)) by (try lia; rewrite plus_INR; cbn [INR]; field; lra). unfold Rdiv. ring.
  - rewrite (linspace_step _ _ (1 / INR n)) by (try lia; field; lra). field. lra.
Qed.

Lemma zsum_cons x l : fold_left Z.add (x :: l) 0%Z = (x + fold_left Z.add l 0)%Z.
Proof.
  cbn [fold_left]. generalize 0%Z. induction l as [|y l IH]; intro a; cbn [fold_left]; [lia|].
  rewrite <- IH. f_equal. lia.
Qed.
Lemma fold_max_in d (l : list Z) : In (fold_right Z.max d l) (d :: l).
Proof.
  induction l as [|y l IH]; cbn [fold_right]; [left; reflexivity|].
  destruct (Z.max_spec y (fold_right Z.max d l)) as [[_ ->]|[_ ->]]; [|right; left; reflexivity].
  destruct IH as [H|H]; [left|right; right]; exact H.
Qed.
Lemma zmax_list_in (l : list Z) : l <> [] -> In (zmax_list l) l.
Proof.
  destruct l as [|x l]; [congruence|]. intros _. destruct (fold_max_in x (x :: l)) as [E|E]; [|exact E].
  unfold zmax_list. cbn [hd]. rewrite <- E. left; reflexivity.
Qed.
Lemma dec_first_sum m l : In m l -> fold_left Z.add (dec_first m l) 0%Z = (fold_left Z.add l 0 - 1)%Z.
Proof.
  induction l as [|x l IH]; intro H; [destruct H|]. cbn [dec_first].
  destruct (x =? m)%Z eqn:E; [rewrite !zsum_cons; lia|].
  apply Z.eqb_neq in E. destruct H as [H|H]; [congruence|]. rewrite !zsum_cons, (IH H). lia.
Qed.
Lemma dec_first_nonempty m l : l <> [] -> dec_first m l <> [].
Proof. destruct l as [|x l]; [congruence|]. cbn [dec_first]. destruct (x =? m)%Z; discriminate. Qed.
Lemma take_from_largest_sum k : forall l, l <> [] -> fold_left Z.add (take_from_largest k l) 0%Z = (fold_left Z.add l 0 - Z.of_nat k)%Z.
Proof.
  induction k as [|k IH]; intros l Hl; cbn [take_from_largest]; [lia|].
  rewrite IH by (apply dec_first_nonempty; exact Hl).
  rewrite dec_first_sum by (apply zmax_list_in; exact Hl). lia.
Qed.
(* only the root section's count has to be non-negative: an excess that exceeds it is then positive *)
Theorem alloc_sum Ncp rounded : rounded <> [] -> (0 <= hd 0 rounded)%Z -> fold_left Z.add (alloc Ncp rounded) 0%Z = Ncp.
Proof.
  destruct rounded as [|r0 rest]; [congruence|]. intros _ Hr. cbn [hd] in Hr. unfold alloc.
  set (diff := (fold_left Z.add (r0 :: rest) 0 - Ncp)%Z).
  destruct (0 <=? r0 - diff)%Z eqn:E.
  - unfold diff. rewrite !zsum_cons. lia.
  - apply Z.leb_gt in E. rewrite take_from_largest_sum by discriminate.
    rewrite Z2Nat.id by lia. lia.
Qed.

Fixpoint trapezoid (spans chords : list R) : R :=
  match spans, chords with
  | s0 :: ((s1 :: _) as sr), c0 :: ((c1 :: _) as cr) => Rabs (s1 - s0) * ((c0 + c1) / 2) + trapezoid sr cr
  | _, _ => 0
  end.
(* no hypothesis on the lengths: [areas] (a map2) and [trapezoid] both stop at the shorter list *)
Theorem area_sum b spans chords :
  fold_right Rplus 0 (areas b spans (mean_chords chords)) = b * trapezoid spans chords.
Proof.
  (* unless both lists have two elements both sides are zero *)
  revert chords; induction spans as [|s0 [|s1 sr] IH]; intros [|c0 [|c1 cr]]; try (symmetry; apply Rmult_0_r).
  change (areas b (s0 :: s1 :: sr) (mean_chords (c0 :: c1 :: cr)))
    with ((Rabs (s1 - s0) * b * ((c1 + c0) / 2)) :: areas b (s1 :: sr) (mean_chords (c1 :: cr))).
  change (trapezoid (s0 :: s1 :: sr) (c0 :: c1 :: cr)) with (Rabs (s1 - s0) * ((c0 + c1) / 2) + trapezoid (s1 :: sr) (c1 :: cr)).
  cbn [fold_right]. rewrite IH. unfold Rdiv. ring.
Qed.
