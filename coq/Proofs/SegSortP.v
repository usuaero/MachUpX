(* Every left-hand segment of a wing whose tip is farther from the x-axis than the initial distance to beat is picked by the sort;
   with -1 that is every segment (distances are not negative), with 0 a segment whose tip lies on the axis is dropped (C04). *)
From Coq Require Import Reals Lra List Bool Permutation.
From MuxV Require Import Base.Num Base.RInst Model.SegSort.
Import ListNotations.
Local Open Scope R_scope.

Lemma picked_in i sorted : picked i sorted = true <-> In i sorted.
Proof.
  unfold picked. rewrite existsb_exists. split.
  - intros (x & Hx & E). apply Nat.eqb_eq in E. subst. exact Hx.
  - intros H. exists i. split; [exact H | apply Nat.eqb_refl].
Qed.

Lemma pass_none (l : list (seg (T:=R))) sorted : forall best beat, pass l sorted best beat = None ->
  best = None /\ forall i n, In (i, n) l -> In i sorted \/ n <= beat.
Proof.
  induction l as [|[j m] r IH]; intros best beat; cbn [pass]; [intros ->; split; [reflexivity|intros ? ? []]|].
  rnum. destruct (Rltb beat m && negb (picked j sorted)) eqn:E; intros H; apply IH in H.
  - destruct H as [[=] _].
  - destruct H as [-> H]. split; [reflexivity|]. intros i n [[= <- <-]|Hin]; [|exact (H i n Hin)].
    apply andb_false_iff in E. destruct E as [E|E]; [right; apply Rltb_false, E|left; apply picked_in, negb_false_iff, E].
Qed.

Lemma pass_some (l : list (seg (T:=R))) sorted i n : forall best beat, pass l sorted best beat = Some (i, n) ->
  best = Some (i, n) \/ (In (i, n) l /\ ~ In i sorted /\ beat < n).
Proof.
  induction l as [|[j m] r IH]; intros best beat; cbn [pass]; [left; assumption|].
  rnum. destruct (Rltb beat m && negb (picked j sorted)) eqn:E; intros H; apply IH in H.
  - apply andb_true_iff in E. destruct E as [Hlt Hn]. apply Rltb_true in Hlt. right. destruct H as [[= <- <-]|(Hin & Hn' & Hlt')].
    + split; [left; reflexivity|split; [|exact Hlt]]. rewrite <- picked_in. apply not_true_iff_false, negb_true_iff, Hn.
    + split; [right; exact Hin|split; [exact Hn'|exact (Rlt_trans _ _ _ Hlt Hlt')]].
  - destruct H as [H|(Hin & H)]; [left; exact H|right]. split; [right; exact Hin|exact H].
Qed.

(* last clause: the loop stops before its fuel is used up only when every segment that beats the initial distance has been picked *)
Lemma sort_left_spec init (l : list (seg (T:=R))) : forall fuel sorted, exists picks,
  sort_left init fuel l sorted = sorted ++ picks /\
  Forall (fun j => exists m, In (j, m) l /\ init < m) picks /\
  (NoDup sorted -> NoDup (sorted ++ picks)) /\
  (length picks = fuel \/ forall i n, In (i, n) l -> init < n -> In i (sorted ++ picks)).
Proof.
  induction fuel as [|f IH]; intros sorted; cbn [sort_left].
  - exists []. rewrite app_nil_r. auto.
  - destruct (pass l sorted None init) as [[j m]|] eqn:E.
    + apply pass_some in E. destruct E as [[=]|(Hin & Hn & Hlt)].
      destruct (IH (sorted ++ [j])) as (picks & -> & Hb & Hnd & Hc). exists (j :: picks). rewrite <- app_assoc in *.
      split; [reflexivity|]. split; [constructor; eauto|]. split.
      * intros Hs. apply Hnd, (Permutation_NoDup (Permutation_cons_append _ _)). constructor; assumption.
      * destruct Hc as [<-|Hc]; [left; reflexivity|right; exact Hc].
    + apply pass_none in E. exists []. rewrite app_nil_r. split; [reflexivity|]. split; [constructor|]. split; [trivial|].
      right. intros i n Hin Hn. destruct (proj2 E i n Hin); [assumption|lra].
Qed.

Lemma sorted_kept init fuel (l : list (seg (T:=R))) sorted i : In i sorted -> In i (sort_left init fuel l sorted).
Proof. destruct (sort_left_spec init l fuel sorted) as (picks & -> & _). intros H. apply in_or_app. left. exact H. Qed.

Theorem sort_left_all init (l : list (seg (T:=R))) fuel : (length l <= fuel)%nat ->
  NoDup (sort_left init fuel l []) /\ forall i, In i (sort_left init fuel l []) <-> exists n, In (i, n) l /\ init < n.
Proof.
  intros Hf. destruct (sort_left_spec init l fuel []) as (picks & -> & Hb & Hnd & Hc). cbn [app] in *. specialize (Hnd (NoDup_nil _)).
  split; [exact Hnd|]. intros i. split; [revert i; apply Forall_forall, Hb|].
  intros (n & Hin & Hn). destruct Hc as [Hlen|Hc]; [|exact (Hc i n Hin Hn)].
  (* all passes picked: as many different identifiers of l as l has segments, hence all of them *)
  apply (NoDup_length_incl Hnd (l' := map fst l)).
  - rewrite map_length, Hlen. exact Hf.
  - intros j Hj. destruct (proj1 (Forall_forall _ _) Hb j Hj) as (m & Hm & _). exact (in_map fst _ _ Hm).
  - exact (in_map fst _ _ Hin).
Qed.
