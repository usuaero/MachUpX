(* The (alpha, beta, V) <-> body-velocity encoding of airplane.py round-trips (hypotheses HA / HB of the analyses theorems),
   with the real trigonometric functions and NumPy's atan2. *)
From Coq Require Import Reals Lra.
From MuxV Require Import Base.Vec3 Base.RInst Model.AeroState Proofs.AnalysesP.
Local Open Scope R_scope.

(* numpy.arctan2 / math.atan2 over the reals, where there is no negative zero: pi on the negative x-axis, 0 at the origin.
   [atan2R] of QPointsP is a second model of it, which differs at the origin. *)
Definition Ratan2 (y x : R) : R :=
  if Rlt_dec 0 x then atan (y / x)
  else if Rlt_dec x 0 then (if Rle_dec 0 y then atan (y / x) + PI else atan (y / x) - PI)
  else if Rlt_dec 0 y then PI / 2 else if Rlt_dec y 0 then - (PI / 2) else 0.

Lemma Ratan2_pos y x : 0 < x -> Ratan2 y x = atan (y / x).
Proof. unfold Ratan2. destruct (Rlt_dec 0 x); [reflexivity | contradiction]. Qed.

Definition d2r : R := PI / 180.
Definition r2d : R := 180 / PI.
Lemma d2r_r2d x : x * r2d * d2r = x.
Proof. unfold d2r, r2d. assert (H := PI_RGT_0). field. lra. Qed.
Lemma r2d_d2r x : x * d2r * r2d = x.
Proof. unfold d2r, r2d. assert (H := PI_RGT_0). field. lra. Qed.

Section Closed.
  Variables (al be V : R).
  Hypothesis Hal : - (PI / 2) < al < PI / 2.
  Let ca := cos al.
  Let sa := sin al.
  Let tau := tan be.
  Let r := sqrt (1 + tau * tau).

  Lemma ca_pos : 0 < ca.
  Proof. unfold ca. apply cos_gt_0; lra. Qed.
  Lemma r_pos : 0 < r.
  Proof. apply sqrt_pos_sq. nra. Qed.
  Lemma r_sq : r * r = 1 + tau * tau.
  Proof. apply sqrt_pos_sq. nra. Qed.

  (* the body of Model/AeroState.v's [body_velocity] (airplane.py 299-313) at the real functions, angles in radians: [body_velocity_code] *)
  Definition bv_code : v3 R :=
    let B_f := atan (tan be / ca) in
    let denom := 1 / sqrt (1 - sa * sa * sin B_f * sin B_f) in
    V3 (V * ca * cos B_f * denom) (V * ca * sin B_f * denom) (V * sa * cos B_f * denom).

  Theorem bv_closed_form : bv_code = V3 (V * ca / r) (V * tau / r) (V * sa / r).
  Proof.
    pose proof ca_pos as Hca. pose proof r_pos as Hr. pose proof r_sq as Hr2.
    unfold bv_code. change (tan be) with tau. set (t := tau / ca).
    rewrite sin_atan, cos_atan. unfold Rsqr.
    destruct (sqrt_pos_sq (1 + t * t)) as [Hs Hs2]; [nra|]. set (s := sqrt (1 + t * t)) in *.
    assert (Ht : tau = t * ca) by (unfold t; field; lra).
    pose proof (sin_cos_sq al) as Hsc. fold sa ca in Hsc.
    (* the square root in the denominator: 1 - sa^2 t^2 / s^2 = (1 + t^2 ca^2) / s^2 *)
    rewrite (sqrt_unique (1 - sa * sa * (t / s) * (t / s)) (r / s)).
    - f_equal; rewrite ?Ht; field; lra.
    - apply Rlt_le, Rdiv_lt_0_compat; assumption.
    - apply (Rmult_eq_reg_r (s * s)); [|nra]. transitivity (r * r); [field; lra|].
      transitivity (s * s - sa * sa * t * t); [|field; lra].
      rewrite Hr2, Ht. replace (sa * sa) with (1 - ca * ca) by lra. lra.
  Qed.
End Closed.

Lemma body_velocity_code a b V : body_velocity cos sin tan atan d2r a b V = bv_code (a * d2r) (b * d2r) V.
Proof. reflexivity. Qed.

Definition encR (vb : v3 R) : R * R * R :=
  (degrees r2d (Ratan2 (vz vb) (vx vb)), degrees r2d (asin (vy vb / sqrt (vx vb * vx vb + vy vb * vy vb + vz vb * vz vb))),
   sqrt (vx vb * vx vb + vy vb * vy vb + vz vb * vz vb)).
Definition decR (a b V : R) : v3 R := body_velocity cos sin tan atan d2r a b V.

Lemma tan_sq_cos x : cos x <> 0 -> 1 + tan x * tan x = / (cos x * cos x).
Proof.
  intro H. unfold tan. pose proof (sin2_cos2 x) as S. unfold Rsqr in S. field_simplify_eq; [|exact H]. nra.
Qed.

(* for beta inside (-90, 90) degrees 1 / r = cos beta: the closed form is the usual one of the wind axes *)
Lemma bv_wind_axes al be V : - (PI / 2) < al < PI / 2 -> - (PI / 2) < be < PI / 2 ->
  bv_code al be V = V3 (V * cos al * cos be) (V * sin be) (V * sin al * cos be).
Proof.
  intros Hal Hbe. rewrite (bv_closed_form al be V Hal).
  assert (Hcb : 0 < cos be) by (apply cos_gt_0; lra).
  rewrite (sqrt_unique (1 + tan be * tan be) (/ cos be)).
  - unfold tan. f_equal; field; lra.
  - left. apply Rinv_0_lt_compat, Hcb.
  - rewrite tan_sq_cos by lra. symmetry. apply Rinv_mult.
Qed.

Theorem enc_dec a b V : -90 < a < 90 -> -90 < b < 90 -> 0 < V -> encR (decR a b V) = (a, b, V).
Proof.
  intros Ha Hb HV. assert (HP := PI_RGT_0).
  set (al := a * d2r). set (be := b * d2r).
  assert (Hal : - (PI / 2) < al < PI / 2) by (unfold al, d2r; split; nra).
  assert (Hbe : - (PI / 2) < be < PI / 2) by (unfold be, d2r; split; nra).
  unfold decR. rewrite body_velocity_code. fold al be. rewrite (bv_wind_axes al be V Hal Hbe).
  assert (Hca : 0 < cos al) by (apply cos_gt_0; lra). assert (Hcb : 0 < cos be) by (apply cos_gt_0; lra).
  pose proof (sin_cos_sq al) as Sa. pose proof (sin_cos_sq be) as Sb.
  unfold encR. cbn [vx vy vz].
  rewrite (sqrt_unique _ V); [|lra|].
  2:{ transitivity (V * V * ((sin al * sin al + cos al * cos al) * (cos be * cos be) + sin be * sin be)); [rewrite Sa; nra | lra]. }
  rewrite Ratan2_pos by (repeat apply Rmult_lt_0_compat; assumption).
  replace (V * sin al * cos be / (V * cos al * cos be)) with (tan al) by (unfold tan; field; repeat split; lra).
  replace (V * sin be / V) with (sin be) by (field; lra).
  rewrite (atan_tan al Hal), asin_sin by lra.
  unfold degrees, al, be. rewrite !r2d_d2r. reflexivity.
Qed.

Theorem dec_enc vb : 0 < vx vb -> let '(a, b, V) := encR vb in decR a b V = vb.
Proof.
  destruct vb as [u v w]. cbn [vx vy vz]. intro Hu. assert (HP := PI_RGT_0).
  unfold encR. cbn [vx vy vz].
  destruct (sqrt_pos_sq (u * u + v * v + w * w)) as [HV HV2]; [nra|]. set (V := sqrt (u * u + v * v + w * w)) in *.
  assert (Hx : -1 < v / V < 1).
  { assert (E : v / V * V = v) by (field; lra). assert (Hv1 : -V < v < V) by nra. split; nra. }
  destruct (sqrt_pos_sq (u * u + w * w)) as [Hp Hp2]; [nra|].
  rewrite (Ratan2_pos _ _ Hu).
  unfold decR. rewrite body_velocity_code. unfold degrees. rewrite !d2r_r2d.
  rewrite bv_wind_axes by (pose proof (atan_bound (w / u)); pose proof (asin_bound_lt (v / V)); lra).
  (* alpha = atan (w / u), beta = asin (v / V): their cosines and sines are quotients of u, v, w, p = sqrt (u^2 + w^2) and V *)
  destruct (atan_quot_direction u w Hu) as [-> ->]. rewrite sin_asin, cos_asin by lra.
  set (p := sqrt (u * u + w * w)) in *.
  rewrite (sqrt_unique (1 - (v / V)²) (p / V)).
  - f_equal; field; lra.
  - apply Rlt_le, Rdiv_lt_0_compat; lra.
  - unfold Rsqr. field_simplify_eq; [|lra]. nra.
Qed.

(* [enc] and [dec] of AnalysesP at the real functions are [encR] and [decR] by conversion *)
Definition okA_real (a b V : R) : Prop := -90 < a < 90 /\ -90 < b < 90 /\ 0 < V.
Definition okB_real (vb : v3 R) : Prop := 0 < vx vb.                                      (* forward flight *)

Theorem HA_real : forall a b V, okA_real a b V -> enc asin Ratan2 r2d (dec cos sin tan atan d2r a b V) = (a, b, V).
Proof. intros a b V [Ha [Hb HV]]. exact (enc_dec a b V Ha Hb HV). Qed.
Theorem HB_real : forall vb, okB_real vb -> let '(a, b, V) := enc asin Ratan2 r2d vb in dec cos sin tan atan d2r a b V = vb.
Proof. intros vb H. exact (dec_enc vb H). Qed.
