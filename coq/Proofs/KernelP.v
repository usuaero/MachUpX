(* Under a similarity map x -> k O x + t (O orthogonal, sigma = det O = +-1, k > 0) the influence of a horseshoe is turned by O and
   comes out sigma / k as large.  Also: reversal of a horseshoe, the induced velocity as a sum over pairs (C13: order independence)
   and homogeneous in the circulations, how fast an influence falls off (C13). *)
From Coq Require Import Reals Lra List Permutation.
From MuxV Require Import Base.Num Base.Vec3 Base.RInst Model.Kernel.
From MuxV Require Export Proofs.VecP.
Import ListNotations.
Local Open Scope R_scope.

Lemma vscale_vdivs (a : v3 R) k d : vscale k (vdivs a d) = vscale (k / d) a.
Proof. rewrite vdivs_as_vscale. apply vscale_vscale. Qed.
Lemma vscale_opp a (v : v3 R) : vscale a (vopp v) = vopp (vscale a v).
Proof. rewrite !vopp_as_vscale. apply vscale_comm. Qed.

Lemma trail_kernel_kept (cutoff : R) (u r : v3 R) : cutoff < trail_denom u r ->
  trail_kernel (fun x => x) cutoff u r = vdivs (vcross u r) (trail_denom u r).
Proof.
  intro H. unfold trail_kernel. apply Rltb_true in H. change (@nltb R RNum) with Rltb. rewrite H. reflexivity.
Qed.

Section Sim.
  Variable O : v3 R -> v3 R.
  Variable sigma : R.
  Hypothesis O_add : forall a b, O (vadd a b) = vadd (O a) (O b).
  Hypothesis O_scale : forall k a, O (vscale k a) = vscale k (O a).
  Hypothesis O_dot : forall a b, vdot (O a) (O b) = vdot a b.
  Hypothesis O_cross : forall a b, vcross (O a) (O b) = vscale sigma (O (vcross a b)).
  Variables (k : R) (t : v3 R).
  Hypothesis kpos : 0 < k.

  (* what the map does to a point, to a difference of points, and (further down, [SV]) to an induced velocity; [Sh] maps a horseshoe *)
  Definition Sp (x : v3 R) : v3 R := vadd (vscale k (O x)) t.
  Definition Sv (x : v3 R) : v3 R := vscale k (O x).
  Lemma Sp_sub a b : vsub (Sp a) (Sp b) = Sv (vsub a b).
  Proof. unfold Sp, Sv. rewrite (lin_sub O) by assumption. vec. Qed.
  Lemma Sv_norm r : vnorm (Sv r) = k * vnorm r.
  Proof. unfold Sv. rewrite vnorm_scale, (isom_norm O) by (assumption || lra). reflexivity. Qed.
  Lemma Sv_dot a b : vdot (Sv a) (Sv b) = k * k * vdot a b.
  Proof. unfold Sv. rewrite vdot_scale_l, vdot_scale_r, O_dot. symmetry. apply Rmult_assoc. Qed.
  Lemma Sv_cross a b : vcross (Sv a) (Sv b) = vscale (k * k * sigma) (O (vcross a b)).
  Proof. unfold Sv. rewrite vcross_scale_l, vcross_scale_r, O_cross, !vscale_vscale. reflexivity. Qed.

  Definition SV (x : v3 R) : v3 R := vscale (sigma / k) (O x).
  Lemma SV_add a b : SV (vadd a b) = vadd (SV a) (SV b).
  Proof. unfold SV. rewrite O_add. apply vscale_add. Qed.
  Lemma SV_scale c a : SV (vscale c a) = vscale c (SV a).
  Proof. unfold SV. rewrite O_scale, !vscale_vscale, Rmult_comm. reflexivity. Qed.

  (* Both kernels are a vector over a scalar; numerator and denominator gain powers of k whose quotient is 1/k.  The division is
     total, as the model's is, so no denominator has to be shown non-zero.  Used for the segment with m = k k and n = ma + mb, for
     the filament with m = n = 1. *)
  Lemma quot_sim m n d c : m <> 0 -> vdivs (vscale (m * (k * n * sigma)) (O c)) (m * (k * k * d)) = SV (vdivs (vscale n c) d).
  Proof.
    intro Hm. unfold SV. rewrite !vdivs_scale, O_scale, vscale_vscale. f_equal.
    unfold Rdiv. rewrite !Rinv_mult. generalize (/ d). intro. field. split; [lra | exact Hm].
  Qed.

  Lemma seg_kernel_sim ra rb : seg_kernel (Sv ra) (Sv rb) = SV (seg_kernel ra rb).
  Proof.
    unfold seg_kernel. rewrite !Sv_norm, Sv_dot, Sv_cross, vscale_vscale.
    (* [quot_sim] backwards puts the right-hand side over one denominator; the sides then differ in how the powers of k are spread
       over the scalar of the numerator (k^3) and the denominator (k^4) *)
    rewrite <- (quot_sim (k * k)) by nra. rnum. f_equal; [f_equal|]; lra.
  Qed.

  (* the denominator scales with k^2 and the cut-off is absolute: the mapped scene at cut-off k^2 c corresponds to the original one
     at c (for k = 1, rigid motions and reflections, the same cut-off) *)
  Lemma trail_denom_sim u r : trail_denom (O u) (Sv r) = k * k * trail_denom u r.
  Proof. unfold trail_denom. rewrite Sv_norm. unfold Sv. rewrite vdot_scale_r, O_dot. rnum. lra. Qed.
  Lemma trail_kernel_sim c u r :
    trail_kernel (fun x => x) (k * k * c) (O u) (Sv r) = SV (trail_kernel (fun x => x) c u r).
  Proof.
    unfold trail_kernel. rewrite trail_denom_sim. set (d := trail_denom u r). rnum.
    assert (E : Rltb (k * k * c) (k * k * d) = Rltb c d).
    { assert (0 < k * k) by nra. destruct (Rltb_spec c d), (Rltb_spec (k * k * c) (k * k * d)); try reflexivity; nra. }
    rewrite E. destruct (Rltb c d); [|symmetry; apply (lin_zero SV SV_scale)].
    change (vdivs (vcross (O u) (Sv r)) (k * k * d) = SV (vdivs (vcross u r) d)).
    rewrite <- (vscale_1_l (vcross u r)), <- (quot_sim 1), !Rmult_1_l, Rmult_1_r by lra. unfold Sv. rewrite vcross_scale_r, O_cross, vscale_vscale. reflexivity.
  Qed.

  (* the trailing directions are mapped by [O] alone, also when sigma = -1: the image of a horseshoe under a reflection is in
     addition re-oriented, which is [swap_hs] below *)
  Definition Sh (h : hshoe R) : hshoe R :=
    mk_hs (Sp (hP0 h)) (Sp (hP1 h)) (Sp (hJ0 h)) (Sp (hJ1 h)) (O (hu0 h)) (O (hu1 h)).
  Theorem vji_sim c i4p diag pc h :
    vji (fun x => x) (k * k * c) i4p diag (Sp pc) (Sh h) = vscale (sigma / k) (O (vji (fun x => x) c i4p diag pc h)).
  Proof.
    unfold vji, Sh. cbn [hP0 hP1 hJ0 hJ1 hu0 hu1]. rewrite !Sp_sub, !seg_kernel_sim, !trail_kernel_sim.
    change (vscale (sigma / k) (O ?x)) with (SV x).
    rewrite SV_scale, !SV_add, (lin_opp SV SV_scale). destruct diag; [rewrite (lin_zero SV SV_scale)|]; reflexivity.
  Qed.
End Sim.

Definition swap_hs (h : hshoe R) : hshoe R := mk_hs (hP1 h) (hP0 h) (hJ1 h) (hJ0 h) (hu1 h) (hu0 h).
Lemma seg_kernel_anti (ra rb : v3 R) : seg_kernel rb ra = vopp (seg_kernel ra rb).
Proof.
  unfold seg_kernel. rewrite (vcross_anti rb ra), (vdot_comm rb ra).
  rewrite (Rmult_comm (vnorm rb)). generalize (vnorm ra) (vnorm rb) (vdot ra rb) (vcross ra rb). intros. vec.
Qed.
Theorem vji_swap nn c i4p diag pc h : vji nn c i4p diag pc (swap_hs h) = vopp (vji nn c i4p diag pc h).
Proof.
  unfold vji, swap_hs. cbn [hP0 hP1 hJ0 hJ1 hu0 hu1].
  rewrite (seg_kernel_anti (vsub pc (hP0 h)) (vsub pc (hP1 h))), (seg_kernel_anti (vsub pc (hP1 h)) (vsub pc (hJ1 h))),
    (seg_kernel_anti (vsub pc (hJ0 h)) (vsub pc (hP0 h))).
  generalize (seg_kernel (vsub pc (hP0 h)) (vsub pc (hP1 h))) (seg_kernel (vsub pc (hJ0 h)) (vsub pc (hP0 h)))
    (seg_kernel (vsub pc (hP1 h)) (vsub pc (hJ1 h))) (trail_kernel nn c (hu0 h) (vsub pc (hJ0 h)))
    (trail_kernel nn c (hu1 h) (vsub pc (hJ1 h))).
  intros. destruct diag; vec.
Qed.

(* over (influence, strength) pairs a re-ordering of the horseshoes is a [Permutation]; C01 writes the equation out in this form *)
Definition ind_pairs (l : list (v3 R * R)) : v3 R := fold_right (fun p acc => vadd (vscale (snd p) (fst p)) acc) vzero l.
Lemma induced_pairs Vr g : induced Vr g = ind_pairs (combine Vr g).
Proof.
  revert g; induction Vr as [|V Vr IH]; intros [|x g]; try reflexivity.
  cbn [induced combine ind_pairs fold_right fst snd]. rewrite IH, vscaler_as_vscale. reflexivity.
Qed.
Lemma induced_scale k Vr g : induced Vr (map (Rmult k) g) = vscale k (induced Vr g).
Proof.
  revert g; induction Vr as [|V Vr IH]; intros [|x g]; cbn [map induced]; try (symmetry; apply vscale_0_r).
  rewrite IH, vscale_add, !vscaler_as_vscale, vscale_vscale. reflexivity.
Qed.
Theorem ind_pairs_perm l l' : Permutation l l' -> ind_pairs l = ind_pairs l'.
Proof.
  induction 1 as [|p l l' Hp IH|p q l|l l' l'' H1 IH1 H2 IH2]; cbn [ind_pairs fold_right].
  - reflexivity.
  - unfold ind_pairs in IH. rewrite IH. reflexivity.
  - apply vadd_comm3.
  - congruence.
Qed.

(* left wing segments list their horseshoes in reverse (C04): a reversal is a permutation *)
Lemma induced_rev (Vr : list (v3 R)) g : length Vr = length g -> induced (rev Vr) (rev g) = induced Vr g.
Proof. intro H. rewrite !induced_pairs, combine_rev by exact H. apply ind_pairs_perm. symmetry. apply Permutation_rev. Qed.

(* The "isolation limit" of C13.  A straight segment of length L, its ends seen within 90 degrees of each other at distances
   ma, mb: |K|^2 <= (ma + mb)^2 L^2 / (2 (ma mb)^3), so O(L / D^2).  A trailing filament at perpendicular distance h = |u x r| of
   its line: |K|^2 h^2 <= 4, so O(1 / h): no decay along the wake, only away from it. *)
(* the scalar core of the filament bound: with m = |r| and s = u.r, |u x r|^2 = (m - s) (m + s) and the denominator is m (m - s),
   so |K|^2 |u x r|^2 is ((m + s) / m)^2, and |s| <= m *)
Lemma trail_decay_scalar m s : 0 <= m -> 0 < m * (m - s) -> s * s <= m * m ->
  (m * m - s * s) / (m * (m - s) * (m * (m - s))) * (m * m - s * s) <= 4.
Proof.
  intros [Hm| <-] Hd Hs; [|lra]. assert (Hms : 0 < m - s) by nra.
  replace ((m * m - s * s) / (m * (m - s) * (m * (m - s))) * (m * m - s * s)) with ((m + s) * (m + s) / (m * m)) by (field; lra).
  apply (Rmult_le_reg_r (m * m)); [nra|]. unfold Rdiv. rewrite Rmult_assoc, Rinv_l by nra. nra.
Qed.
Theorem trail_kernel_decay cutoff (u r : v3 R) : vdot u u = 1 -> 0 <= cutoff -> cutoff < trail_denom u r ->
  vnorm2 (trail_kernel (fun x => x) cutoff u r) * vnorm2 (vcross u r) <= 4.
Proof.
  intros Hu Hc Hd. rewrite trail_kernel_kept, vnorm2_divs by exact Hd.
  (* Cauchy-Schwarz, read off |u x r|^2 >= 0 *)
  pose proof (vdot_nonneg (vcross u r)) as Hs. unfold vnorm2. rewrite lagrange, Hu, Rmult_1_l, <- vnorm_sq in Hs |- *.
  apply trail_decay_scalar; [apply sqrt_pos | exact (Rle_lt_trans _ _ _ Hc Hd) | lra].
Qed.

(* the scalar core of the segment bound: with A = (ma + mb)^2, mm = ma mb and p = ra.rb, |K|^2 = A (mm - p) / (mm^2 (mm + p));
   the bound follows from mm + p >= mm and, the geometric mean being below the arithmetic one, 2 (mm - p) <= L^2 *)
Lemma seg_decay_scalar A mm p L2 : 0 <= A -> 0 < mm -> 0 <= p -> p <= mm -> 2 * (mm - p) <= L2 ->
  A * ((mm - p) * (mm + p)) / (mm * (mm + p) * (mm * (mm + p))) <= A * L2 / (2 * mm * mm * mm).
Proof.
  intros HA Hm Hp Hpm HL.
  assert (H3 : 0 < mm * mm * mm) by (repeat apply Rmult_lt_0_compat; assumption).
  replace (A * ((mm - p) * (mm + p)) / (mm * (mm + p) * (mm * (mm + p))))
    with (A * (2 * mm * (mm - p)) / (2 * (mm * mm * mm) * (mm + p))) by (field; lra).
  replace (A * L2 / (2 * mm * mm * mm)) with (A * (L2 * (mm + p)) / (2 * (mm * mm * mm) * (mm + p))) by (field; lra).
  apply Rmult_le_compat_r; [left; apply Rinv_0_lt_compat, Rmult_lt_0_compat; lra|].
  apply Rmult_le_compat_l; [exact HA|].
  apply Rle_trans with (2 * (mm - p) * mm); [lra|]. apply Rmult_le_compat; lra.
Qed.
Theorem seg_kernel_decay (ra rb : v3 R) : 0 < vnorm ra -> 0 < vnorm rb -> 0 <= vdot ra rb ->
  let ma := vnorm ra in let mb := vnorm rb in let L2 := vdot (vsub rb ra) (vsub rb ra) in
  vnorm2 (seg_kernel ra rb) <= (ma + mb) * (ma + mb) * L2 / (2 * (ma * mb) * (ma * mb) * (ma * mb)).
Proof.
  intros Ha Hb Hp. unfold seg_kernel. rnum.
  rewrite vnorm2_divs, vnorm2_scale. unfold vnorm2. rewrite lagrange.
  assert (HL2 : vdot (vsub rb ra) (vsub rb ra) = vdot ra ra + vdot rb rb - 2 * vdot ra rb) by vec.
  pose proof (vdot_nonneg (vcross ra rb)) as Hc. rewrite lagrange in Hc.
  rewrite HL2, <- !vnorm_sq in *. clear HL2.
  set (ma := vnorm ra) in *. set (mb := vnorm rb) in *. set (p := vdot ra rb) in *.
  replace (ma * ma * (mb * mb) - p * p) with ((ma * mb - p) * (ma * mb + p)) in * by lra.
  assert (Hmm : 0 < ma * mb) by (apply Rmult_lt_0_compat; assumption).
  (* Cauchy-Schwarz, read off |ra x rb|^2 >= 0 *)
  assert (Hpm : p <= ma * mb) by nra.
  apply seg_decay_scalar; try assumption; [apply Rle_0_sqr | pose proof (Rle_0_sqr (ma - mb)); unfold Rsqr in *; lra].
Qed.
