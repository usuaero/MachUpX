(* Piecewise-linear interpolation of a field table (C17).  The barycentric coordinates are the only weights that sum to one and
   reproduce the point; so every affine field is reproduced whatever simplex the triangulation hands over, and two tetrahedra sharing
   a face agree on it (there the value does not depend on which neighbour the point location returns).

   Cramer's rule enters as two identities about [det3] of three arbitrary edge vectors ([cramer3], [det3_lin]); everywhere
   else the determinants stay folded and the edges [b - a], [c - a], [d - a] are never expanded.
   [bary_sum] and [interp_bounds] hold of any four points; what mentions the point itself needs a tetrahedron that is not flat.
   The lemmas [interp_*] of this file are about [field_interp]; those of InterpP are about np.interp. *)
From Coq Require Import Reals List Psatz.
From MuxV Require Import Base.RInst Base.Vec3 Model.FieldInterp Proofs.VecP.
Import ListNotations.
Local Open Scope R_scope.

Definition comb (l0 l1 l2 l3 : R) (a b c d : v3 R) : v3 R :=
  V3 (l0 * vx a + l1 * vx b + l2 * vx c + l3 * vx d) (l0 * vy a + l1 * vy b + l2 * vy c + l3 * vy d)
     (l0 * vz a + l1 * vz b + l2 * vz c + l3 * vz d).

Local Notation lin3 l1 l2 l3 e1 e2 e3 := (vadd (vadd (vscale l1 e1) (vscale l2 e2)) (vscale l3 e3)).

(* existence: the cofactor determinants are D times the coordinates of q *)
Lemma cramer3 e1 e2 e3 q : lin3 (det3 q e2 e3) (det3 e1 q e3) (det3 e1 e2 q) e1 e2 e3 = vscale (det3 e1 e2 e3) q.
Proof. unfold det3. vec. Qed.
(* uniqueness.  The triple product is invariant under cyclic permutation, so q can be brought to the front; there it enters linearly,
   and a product with a repeated factor vanishes. *)
Lemma det3_lin x1 x2 x3 e1 e2 e3 : let q := lin3 x1 x2 x3 e1 e2 e3 in
  det3 q e2 e3 = x1 * det3 e1 e2 e3 /\ det3 e1 q e3 = x2 * det3 e1 e2 e3 /\ det3 e1 e2 q = x3 * det3 e1 e2 e3.
Proof.
  assert (L : forall u, vdot (lin3 x1 x2 x3 e1 e2 e3) u = x1 * vdot e1 u + x2 * vdot e2 u + x3 * vdot e3 u)
    by (intro u; rewrite !vdot_add_l, !vdot_scale_l; reflexivity).
  unfold det3. split; [|split].
  - rewrite L, vdot_cross_l, vdot_cross_r. ring.
  - rewrite (vdot_cross_cyc e1), L, vdot_cross_r, vdot_cross_l, <- (vdot_cross_cyc e1 e2 e3). ring.
  - rewrite (vdot_cross_cyc e1), (vdot_cross_cyc e2), L, vdot_cross_l, vdot_cross_r, (vdot_cross_cyc e3 e1 e2). ring.
Qed.

Lemma cramer_solve D N1 N2 N3 a b c d p : D <> 0 ->
  N1 * (b - a) + N2 * (c - a) + N3 * (d - a) = D * (p - a) ->
  (1 - N1 / D - N2 / D - N3 / D) * a + N1 / D * b + N2 / D * c + N3 / D * d = p.
Proof. intros HD E. replace p with (a + D * (p - a) / D) by (field; exact HD). rewrite <- E. field. exact HD. Qed.

Lemma bary_sum a b c d p : let '(l0, l1, l2, l3) := bary a b c d p in l0 + l1 + l2 + l3 = 1.
Proof. unfold bary. rnum. ring. Qed.

Lemma bary_point a b c d p : tet_volume6 a b c d <> 0 ->
  let '(l0, l1, l2, l3) := bary a b c d p in comb l0 l1 l2 l3 a b c d = p.
Proof.
  intros HD. pose proof (cramer3 (vsub b a) (vsub c a) (vsub d a) (vsub p a)) as C. unfold bary.
  apply v3_ext; (apply cramer_solve; [exact HD|]).
  - exact (f_equal vx C).
  - exact (f_equal vy C).
  - exact (f_equal vz C).
Qed.

(* so the transform-matrix evaluation scipy uses and Cramer's rule give the same real numbers *)
Lemma bary_unique a b c d p m0 m1 m2 m3 : tet_volume6 a b c d <> 0 ->
  m0 + m1 + m2 + m3 = 1 -> comb m0 m1 m2 m3 a b c d = p -> bary a b c d p = (m0, m1, m2, m3).
Proof.
  intros HD Hs <-. replace m0 with (1 - m1 - m2 - m3) by lra. unfold bary. rnum.
  replace (vsub (comb (1 - m1 - m2 - m3) m1 m2 m3 a b c d) a) with (lin3 m1 m2 m3 (vsub b a) (vsub c a) (vsub d a)) by (unfold comb; vec).
  destruct (det3_lin m1 m2 m3 (vsub b a) (vsub c a) (vsub d a)) as (-> & -> & ->).
  unfold Rdiv. rewrite !Rinv_r_simpl_l by exact HD. reflexivity.
Qed.

Theorem interp_affine a b c d p (g : v3 R) (k : R) : tet_volume6 a b c d <> 0 ->
  field_interp a b c d (vdot g a + k) (vdot g b + k) (vdot g c + k) (vdot g d + k) p = vdot g p + k.
Proof.
  intros HD. pose proof (bary_point a b c d p HD) as Hp. pose proof (bary_sum a b c d p) as Hs.
  unfold field_interp. destruct (bary a b c d p) as [[[l0 l1] l2] l3]. subst p. replace l0 with (1 - l1 - l2 - l3) by lra.
  unfold comb. vec.
Qed.

Corollary interp_affine_any_simplex a b c d a' b' c' d' p g k :
  tet_volume6 a b c d <> 0 -> tet_volume6 a' b' c' d' <> 0 ->
  field_interp a b c d (vdot g a + k) (vdot g b + k) (vdot g c + k) (vdot g d + k) p =
  field_interp a' b' c' d' (vdot g a' + k) (vdot g b' + k) (vdot g c' + k) (vdot g d' + k) p.
Proof. intros H1 H2. rewrite !interp_affine by assumption. reflexivity. Qed.

Theorem interp_nodes a b c d fa fb fc fd : tet_volume6 a b c d <> 0 ->
  field_interp a b c d fa fb fc fd a = fa /\ field_interp a b c d fa fb fc fd b = fb /\
  field_interp a b c d fa fb fc fd c = fc /\ field_interp a b c d fa fb fc fd d = fd.
Proof.
  intros HD. unfold field_interp. repeat split.
  - rewrite (bary_unique a b c d a 1 0 0 0 HD); [rnum; ring | lra | unfold comb; vec].
  - rewrite (bary_unique a b c d b 0 1 0 0 HD); [rnum; ring | lra | unfold comb; vec].
  - rewrite (bary_unique a b c d c 0 0 1 0 HD); [rnum; ring | lra | unfold comb; vec].
  - rewrite (bary_unique a b c d d 0 0 0 1 HD); [rnum; ring | lra | unfold comb; vec].
Qed.

Definition in_tet (a b c d p : v3 R) : Prop :=
  let '(l0, l1, l2, l3) := bary a b c d p in 0 <= l0 /\ 0 <= l1 /\ 0 <= l2 /\ 0 <= l3.

Theorem interp_bounds a b c d fa fb fc fd p lo hi : in_tet a b c d p ->
  lo <= fa <= hi -> lo <= fb <= hi -> lo <= fc <= hi -> lo <= fd <= hi ->
  lo <= field_interp a b c d fa fb fc fd p <= hi.
Proof.
  unfold in_tet, field_interp. pose proof (bary_sum a b c d p) as Hs.
  destruct (bary a b c d p) as [[[l0 l1] l2] l3]. rnum. intros (H0 & H1 & H2 & H3) Ha Hb Hc Hd.
  assert (l0 = 1 - l1 - l2 - l3) by lra. subst l0. split; nra.
Qed.

Theorem interp_shared_face a b c d d' fa fb fc fd fd' p :
  tet_volume6 a b c d <> 0 -> tet_volume6 a b c d' <> 0 ->
  (let '(_, _, _, l3) := bary a b c d p in l3 = 0) ->
  field_interp a b c d fa fb fc fd p = field_interp a b c d' fa fb fc fd' p.
Proof.
  intros HD HD' H3. pose proof (bary_point a b c d p HD) as Hp. pose proof (bary_sum a b c d p) as Hs.
  unfold field_interp. destruct (bary a b c d p) as [[[l0 l1] l2] l3]. subst l3.
  rewrite (bary_unique a b c d' p l0 l1 l2 0 HD'); [rnum; ring | lra | rewrite <- Hp; unfold comb; vec].
Qed.

Theorem wind_affine a b c d p (gx gy gz : v3 R) (k : v3 R) : tet_volume6 a b c d <> 0 ->
  let w q := V3 (vdot gx q + vx k) (vdot gy q + vy k) (vdot gz q + vz k) in
  wind_interp a b c d (w a) (w b) (w c) (w d) p = w p.
Proof. intros HD w. unfold wind_interp, w. cbn [vx vy vz]. rewrite !interp_affine by exact HD. reflexivity. Qed.

Example unit_tet_inside :
  let a := V3 0 0 0 in let b := V3 1 0 0 in let c := V3 0 1 0 in let d := V3 0 0 1 in
  tet_volume6 a b c d <> 0 /\ in_tet a b c d (V3 (1/4) (1/4) (1/4)) /\ field_interp a b c d 1 2 3 5 (V3 (1/4) (1/4) (1/4)) = 11/4.
Proof.
  intros a b c d. assert (HD : tet_volume6 a b c d = 1) by (unfold tet_volume6, det3; subst a b c d; vec).
  assert (E : bary a b c d (V3 (1/4) (1/4) (1/4)) = (1/4, 1/4, 1/4, 1/4)) by (apply bary_unique; [lra | lra | subst a b c d; unfold comb; vec]).
  unfold in_tet, field_interp. rewrite E. rnum. lra.
Qed.
