(* [quat_trans q] is the conjugation v |-> q* v q, so the composition and inverse laws of the transformations are rewriting with
   associativity; linearity, inner and cross products are identities between components. *)
From Coq Require Import Reals Lra.
From MuxV Require Import Base.Num Base.Vec3 Base.RInst Model.Helpers.
From MuxV Require Export Proofs.VecP.
Local Open Scope R_scope.

Definition qn2 (q : quat R) : R := quat_norm2 q.     (* |q|^2; the short name is the one the statements of C03, C08, C09 use *)
Definition qscale (s : R) (q : quat R) := Q4 (s * qw q) (s * qx q) (s * qy q) (s * qz q).

(* identities between quaternion expressions, component by component; [quat_trans] and [quat_inv_trans] match on their vector
   argument: the caller destructs it first.  The closing [lra] sees the hypotheses: with [sin_cos_sq a] in the context it also proves
   identities about [Q4 (cos a) (sin a) 0 0] *)
Ltac quat := repeat match goal with q : quat R |- _ => destruct q end;
  cbv beta iota zeta delta [qn2 qscale quat_norm2 quat_mult quat_conj quat_of_vec quat_trans quat_inv_trans qw qx qy qz];
  vec_unfold; try match goal with |- Q4 _ _ _ _ = Q4 _ _ _ _ => f_equal end; unfold Rdiv; lra.

Lemma mult_assoc p q r : quat_mult (quat_mult p q) r = quat_mult p (quat_mult q r).
Proof. quat. Qed.
Lemma conj_mult p q : quat_conj (quat_mult p q) = quat_mult (quat_conj q) (quat_conj p).
Proof. quat. Qed.
Lemma conj_conj q : quat_conj (quat_conj q) = q.
Proof. quat. Qed.
Lemma mult_conj q : quat_mult q (quat_conj q) = Q4 (qn2 q) 0 0 0.
Proof. quat. Qed.
Lemma conj_norm2 q : qn2 (quat_conj q) = qn2 q.
Proof. quat. Qed.
Lemma mult_norm2 p q : qn2 (quat_mult p q) = qn2 p * qn2 q.
Proof. quat. Qed.

Lemma trans_is_conjugation q v : quat_of_vec (quat_trans q v) = quat_mult (quat_conj q) (quat_mult (quat_of_vec v) q).
Proof. destruct v. quat. Qed.
Lemma conj_trans q v : quat_trans (quat_conj q) v = quat_inv_trans q v.
Proof. destruct v. quat. Qed.
Lemma conj_inv_trans q v : quat_inv_trans (quat_conj q) v = quat_trans q v.
Proof. rewrite <- conj_trans, conj_conj. reflexivity. Qed.
Lemma trans_real s v : quat_trans (Q4 s 0 0 0) v = vscale (s * s) v.
Proof. destruct v. quat. Qed.

Lemma trans_mult p q v : quat_trans (quat_mult p q) v = quat_trans q (quat_trans p v).
Proof.
  assert (inj : forall a b : v3 R, quat_of_vec a = quat_of_vec b -> a = b) by (intros [] [] [=]; subst; reflexivity).
  apply inj. rewrite !trans_is_conjugation, conj_mult, !mult_assoc. reflexivity.
Qed.
Lemma inv_trans_mult p q v : quat_inv_trans (quat_mult p q) v = quat_inv_trans p (quat_inv_trans q v).
Proof. rewrite <- !conj_trans, conj_mult. apply trans_mult. Qed.

Lemma inv_trans_trans (q : quat R) (v : v3 R) :
  quat_inv_trans q (quat_trans q v) = vscale (qn2 q * qn2 q) v.
Proof. rewrite <- conj_trans, <- trans_mult, mult_conj. apply trans_real. Qed.
Lemma trans_inv_trans (q : quat R) (v : v3 R) :
  quat_trans q (quat_inv_trans q v) = vscale (qn2 q * qn2 q) v.
Proof. rewrite <- (conj_norm2 q), <- inv_trans_trans, conj_inv_trans, conj_trans. reflexivity. Qed.
Lemma inv_trans_trans_unit q v : qn2 q = 1 -> quat_inv_trans q (quat_trans q v) = v.
Proof. intros H; rewrite inv_trans_trans, H, Rmult_1_l; apply vscale_1_l. Qed.
Lemma trans_inv_trans_unit q v : qn2 q = 1 -> quat_trans q (quat_inv_trans q v) = v.
Proof. intros H; rewrite trans_inv_trans, H, Rmult_1_l; apply vscale_1_l. Qed.

Lemma trans_add q a b : quat_trans q (vadd a b) = vadd (quat_trans q a) (quat_trans q b).
Proof. destruct a, b. quat. Qed.
Lemma trans_scale q k a : quat_trans q (vscale k a) = vscale k (quat_trans q a).
Proof. destruct a. quat. Qed.
Lemma trans_sub q a b : quat_trans q (vsub a b) = vsub (quat_trans q a) (quat_trans q b).
Proof. apply lin_sub; [apply trans_add | apply trans_scale]. Qed.
Lemma inv_trans_add q a b : quat_inv_trans q (vadd a b) = vadd (quat_inv_trans q a) (quat_inv_trans q b).
Proof. rewrite <- !conj_trans. apply trans_add. Qed.
Lemma inv_trans_scale q k a : quat_inv_trans q (vscale k a) = vscale k (quat_inv_trans q a).
Proof. rewrite <- !conj_trans. apply trans_scale. Qed.
Lemma inv_trans_sub q a b : quat_inv_trans q (vsub a b) = vsub (quat_inv_trans q a) (quat_inv_trans q b).
Proof. rewrite <- !conj_trans. apply trans_sub. Qed.

Lemma trans_dot q a b :
  vdot (quat_trans q a) (quat_trans q b) = qn2 q * qn2 q * vdot a b.
Proof. destruct a, b. quat. Qed.
Lemma inv_trans_dot q a b :
  vdot (quat_inv_trans q a) (quat_inv_trans q b) = qn2 q * qn2 q * vdot a b.
Proof. rewrite <- !conj_trans, trans_dot, conj_norm2. reflexivity. Qed.
(* the hypothesis stands before [a b] so that [trans_dot_unit q H] is an [O_dot] as the sections over a linear map [O] assume it *)
Lemma trans_dot_unit q : qn2 q = 1 -> forall a b, vdot (quat_trans q a) (quat_trans q b) = vdot a b.
Proof. intros H a b. rewrite trans_dot, H, !Rmult_1_l. reflexivity. Qed.
Lemma inv_trans_dot_unit q : qn2 q = 1 -> forall a b, vdot (quat_inv_trans q a) (quat_inv_trans q b) = vdot a b.
Proof. intros H a b. rewrite inv_trans_dot, H, !Rmult_1_l. reflexivity. Qed.
Lemma trans_norm_unit q v : qn2 q = 1 -> vnorm (quat_trans q v) = vnorm v.
Proof. intros H. apply isom_norm, trans_dot_unit, H. Qed.
Lemma inv_trans_norm_unit q v : qn2 q = 1 -> vnorm (quat_inv_trans q v) = vnorm v.
Proof. intros H. apply isom_norm, inv_trans_dot_unit, H. Qed.

Lemma trans_cross q a b :
  vcross (quat_trans q a) (quat_trans q b) = vscale (qn2 q) (quat_trans q (vcross a b)).
Proof. destruct a, b. quat. Qed.
Lemma inv_trans_cross q a b :
  vcross (quat_inv_trans q a) (quat_inv_trans q b) = vscale (qn2 q) (quat_inv_trans q (vcross a b)).
Proof. rewrite <- !conj_trans, trans_cross, conj_norm2. reflexivity. Qed.
(* the shape in which the similarity sections (KernelP, ResidualEqP) state how a map treats cross products, at sigma = 1: [vscale 1]
   stays on the right *)
Lemma rot_cross q : qn2 q = 1 -> forall a b,
  vcross (quat_inv_trans q a) (quat_inv_trans q b) = vscale 1 (quat_inv_trans q (vcross a b)).
Proof. intros Hq a b. rewrite inv_trans_cross, Hq. reflexivity. Qed.

Lemma trans_id v : quat_trans (Q4 1 0 0 0) v = v.
Proof. rewrite trans_real, Rmult_1_l. apply vscale_1_l. Qed.
Lemma inv_trans_id v : quat_inv_trans (Q4 1 0 0 0) v = v.
Proof. rewrite <- conj_trans. replace (quat_conj (Q4 1 0 0 0)) with (Q4 1 0 0 0) by quat. apply trans_id. Qed.

Lemma trans_qscale s q v : quat_trans (qscale s q) v = vscale (s * s) (quat_trans q v).
Proof.
  replace (qscale s q) with (quat_mult (Q4 s 0 0 0) q) by quat.
  rewrite trans_mult, trans_real. apply trans_scale.
Qed.

(* set_state normalises a quaternion it is given *)
Lemma normalize_qscale q : quat_normalize q = qscale (/ sqrt (qn2 q)) q.
Proof. destruct q. unfold quat_normalize, qscale; cbn [qw qx qy qz]. f_equal; apply Rmult_comm. Qed.
Lemma qscale_norm2 s q : qn2 (qscale s q) = s * s * qn2 q.
Proof. quat. Qed.
Lemma qn2_nonneg q : 0 <= qn2 q.
Proof. destruct q as [a b c d]. unfold qn2, quat_norm2. rnum. nra. Qed.

Lemma normalize_unit q : qn2 q <> 0 -> qn2 (quat_normalize q) = 1.
Proof.
  intro H. rewrite normalize_qscale, qscale_norm2, inv_sqrt_sq by apply qn2_nonneg. apply Rinv_l, H.
Qed.
Lemma normalize_unit_id q : qn2 q = 1 -> quat_normalize q = q.
Proof. intro H. rewrite normalize_qscale, H, sqrt_1. quat. Qed.
Lemma normalize_same_rotation q v : qn2 q <> 0 ->
  quat_trans (quat_normalize q) v = vscale (/ qn2 q) (quat_trans q v).
Proof. intro H. rewrite normalize_qscale, trans_qscale, inv_sqrt_sq by apply qn2_nonneg. reflexivity. Qed.

Lemma euler_to_quat_unit phi theta psi : qn2 (euler_to_quat cos sin phi theta psi) = 1.
Proof.
  unfold qn2, quat_norm2, euler_to_quat. rnum.
  generalize (sin_cos_sq (phi / n2)) (sin_cos_sq (theta / n2)) (sin_cos_sq (psi / n2)).
  generalize (cos (phi / n2)) (sin (phi / n2)) (cos (theta / n2)) (sin (theta / n2)) (cos (psi / n2)) (sin (psi / n2)).
  intros cp sp ct st cs ss Hp Ht Hs.
  transitivity ((sp * sp + cp * cp) * (st * st + ct * ct) * (ss * ss + cs * cs)); [lra | rewrite Hp, Ht, Hs, !Rmult_1_l; reflexivity].
Qed.

Lemma euler_pitch a : euler_to_quat cos sin 0 a 0 = Q4 (cos (a / 2)) 0 (sin (a / 2)) 0.
Proof. unfold euler_to_quat, n2. rnum. replace (0 / 2) with 0 by lra. rewrite cos_0, sin_0. f_equal; lra. Qed.
(* angular rates given in stability axes (airplane.py 195-202, [parse_rates] at [FStab]): a rotation by alpha about the y axis *)
Lemma stab_rates_rotation a p q r :
  quat_inv_trans (quat_conj (euler_to_quat cos sin 0 a 0)) (V3 p q r) =
  V3 (cos a * p - sin a * r) q (sin a * p + cos a * r).
Proof.
  rewrite euler_pitch.
  replace (cos a) with (cos (2 * (a / 2))) by (f_equal; lra). replace (sin a) with (sin (2 * (a / 2))) by (f_equal; lra).
  rewrite cos_2a, sin_2a. generalize (sin_cos_sq (a / 2)). generalize (cos (a / 2)) (sin (a / 2)). intros c s H.
  cbv beta iota zeta delta [quat_conj quat_inv_trans nadd nsub nmul nopp RNum].
  f_equal; [lra | transitivity (q * (s * s + c * c)); [lra | rewrite H; apply Rmult_1_r] | lra].
Qed.
