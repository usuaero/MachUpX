(* The fuelled loops of target_CL, pitch trim and orientation trim (Model/Analyses.v): what the returned state satisfies and what it
   leaves untouched, for any residual function passed in; and the aerodynamic centre as the solution of its two stationarity equations. *)
From Coq Require Import Reals Lra List Bool.
From MuxV Require Import Base.Num Base.Vec3 Base.RInst Model.Helpers Model.Analyses.
Import ListNotations.
Local Open Scope R_scope.

Lemma nth_set_nth_other (l : list R) i j x : i <> j -> nth j (set_nth l i x) 0 = nth j l 0.
Proof.
  revert i j; induction l as [|a l IH]; intros i j Hij; [destruct i; reflexivity|].
  destruct i as [|i]; destruct j as [|j]; try reflexivity; [congruence|]. apply IH. congruence.
Qed.

Section Loops.
  Variables (fcos fsin ftan fatan fasin : R -> R) (fatan2 : R -> R -> R) (d2r r2d : R).
  Variable W : v3 R.
  Variable F : ast R -> list R.
  Variable solve2 : R -> R -> R -> R -> R -> R -> R * R.

  Notation tloop := (target_CL_loop fcos fsin ftan fatan fasin fatan2 d2r r2d W F).

  Lemma big_false tol R : big tol R = false -> Rabs (fst R) <= tol /\ Rabs (snd R) <= tol.
  Proof. intro H. apply orb_false_elim in H. split; apply Rltb_false, H. Qed.

  (* C10, one induction per loop: in a state the loop built, the residual was computed in that very state before the test that ended
     the loop.  The first residual ([CL] here) is whatever the caller passes - scene.py passes the one of the start state - hence the
     first disjunct: the loop never ran. *)
  Theorem target_CL_result fuel : forall s alpha CL target relax tol a sf,
    tloop fuel s alpha CL target relax tol = Some (a, sf) ->
    Rabs (CL - target) <= tol /\ sf = s \/ Rabs (CL_of F sf - target) <= tol.
  Proof.
    induction fuel as [|f IH]; intros s alpha CL target relax tol a sf H; cbn beta iota delta [target_CL_loop] in H;
      (destruct (nltb tol _) eqn:E; [|left; injection H as _ <-; split; [apply Rltb_false, E | reflexivity]]).
    - discriminate.
    - destruct f as [|f']; [discriminate|]. right. apply IH in H. destruct H as [[H ->]|H]; exact H.
  Qed.

  Theorem pitch_trim_result fuel : forall s ic alpha flap R CLd Cmd relax tol a fl sf,
    pitch_trim_loop fcos fsin ftan fatan fasin fatan2 d2r r2d W F solve2 fuel s ic alpha flap R CLd Cmd relax tol = Some (a, fl, sf) ->
    (big tol R = false /\ sf = s \/ big tol (trim_res F sf CLd Cmd) = false) /\
    s_w sf = s_w s /\ s_p sf = s_p s /\ s_q sf = s_q s.
  Proof.
    induction fuel as [|f IH]; intros s ic alpha flap R CLd Cmd relax tol a fl sf H; cbn [pitch_trim_loop] in H;
      (destruct (big tol R) eqn:E; [|injection H as _ _ <-; auto]).
    - discriminate.
    - destruct (Analyses.get_ae _ _ _ _ _) as [[a0 b0] V0]. destruct (solve2 _ _ _ _ _ _) as [d0 d1].
      destruct f as [|f']; [discriminate|]. apply IH in H. destruct H as [H Hfr].
      split; [right; destruct H as [[H ->]|H]; exact H | exact Hfr].
  Qed.

  (* the recorded Earth-fixed velocity [v0] is handed back through the new attitude, which no hypothesis makes a unit quaternion:
     hence [s_v sf] in that shape *)
  Theorem orient_trim_result fuel : forall s ic phi theta psi flap R CLd Cmd relax tol v0 w0 p0 th fl sf,
    orient_trim_loop fcos fsin F solve2 fuel s ic phi theta psi flap R CLd Cmd relax tol v0 w0 p0 = Some (th, fl, sf) ->
    (big tol R = false /\ sf = s /\ th = theta /\ fl = flap) \/
    (big tol (trim_res F sf CLd Cmd) = false /\
     s_q sf = euler_to_quat fcos fsin phi th psi /\ s_v sf = quat_inv_trans (s_q sf) (quat_trans (s_q sf) v0) /\
     s_w sf = w0 /\ s_p sf = p0 /\ forall j, j <> ic -> nth j (s_c sf) 0 = nth j (s_c s) 0).
  Proof.
    induction fuel as [|f IH]; intros s ic phi theta psi flap R CLd Cmd relax tol v0 w0 p0 th fl sf H; cbn [orient_trim_loop] in H;
      (destruct (big tol R) eqn:E; [|injection H as <- <- <-; auto]).
    - discriminate.
    - destruct (solve2 _ _ _ _ _ _) as [d0 d1]. destruct f as [|f']; [discriminate|].
      apply IH in H. right. destruct H as [(Hb & -> & -> & ->)|(Hb & Hq & Hv & Hw & Hp & Hc)].
      + repeat split; [exact Hb|]. intros j Hj. cbn [s_c set_c with_attitude]. rewrite !nth_set_nth_other by congruence. reflexivity.
      + repeat split; try assumption. intros j Hj. rewrite (Hc j Hj). cbn [s_c set_c with_attitude].
        rewrite !nth_set_nth_other by congruence. reflexivity.
  Qed.

  (* the cap, for target_CL and its last step only; [None] is MaxIterationError *)
  Theorem target_CL_cap : forall s alpha CL target relax tol, tol < Rabs (CL - target) ->
    tloop 1 s alpha CL target relax tol = None.
  Proof.
    intros s alpha CL target relax tol H. cbn [target_CL_loop].
    destruct (nltb tol _) eqn:E; [reflexivity|]. apply Rltb_false in E. rnum. lra.
  Qed.
End Loops.

(* Aerodynamic centre (scene.py 3039-3056), Phillips eqs 4.8.29-31.  Axial and normal coefficients CA = -Cx, CN = -Cz; the moment
   transferred to the point at (-x, -z) reference lengths from the centre of gravity in body axes (x positive aft, z positive up:
   scene.py returns CG - (x, z) l_ref) is Cm_P = Cm - x Cz + z Cx. *)
Section AC.
  Variables (Cx0 Cx1 Cx2 Cz0 Cz1 Cz2 Cm0 Cm1 Cm2 delta : R).   (* at alpha0 - delta, alpha0, alpha0 + delta *)
  Let CA_a := (- Cx2 + Cx0) / (2 * delta).
  Let CN_a := (- Cz2 + Cz0) / (2 * delta).
  Let Cm_a := (Cm2 - Cm0) / (2 * delta).
  Let CA_a2 := (- Cx2 + 2 * Cx1 - Cx0) / (delta * delta).
  Let CN_a2 := (- Cz2 + 2 * Cz1 - Cz0) / (delta * delta).
  Let Cm_a2 := (Cm2 - 2 * Cm1 + Cm0) / (delta * delta).
  Let den := CN_a * CA_a2 - CA_a * CN_a2.
  Definition x_ac := (CA_a * Cm_a2 - Cm_a * CA_a2) / den.
  Definition z_ac := (CN_a * Cm_a2 - Cm_a * CN_a2) / den.
  Definition CmP (Cx Cz Cm : R) : R := Cm - x_ac * Cz + z_ac * Cx.

  (* Cramer's rule for the two linear equations that say the alpha-derivatives of Cm_P vanish ... *)
  Lemma ac_system : den <> 0 ->
    Cm_a + x_ac * CN_a - z_ac * CA_a = 0 /\ Cm_a2 + x_ac * CN_a2 - z_ac * CA_a2 = 0.
  Proof. intro H. unfold x_ac, z_ac. unfold den in *. split; field; exact H. Qed.
  (* ... and the central differences of Cm_P, which is linear in the loads, are those left-hand sides *)
  Theorem aero_center_stationary : delta <> 0 -> den <> 0 ->
    (CmP Cx2 Cz2 Cm2 - CmP Cx0 Cz0 Cm0) / (2 * delta) = 0 /\
    (CmP Cx2 Cz2 Cm2 - 2 * CmP Cx1 Cz1 Cm1 + CmP Cx0 Cz0 Cm0) / (delta * delta) = 0.
  Proof.
    intros Hd Hden. destruct (ac_system Hden) as [E1 E2]. split.
    - rewrite <- E1. unfold CmP, Cm_a, CN_a, CA_a. field. exact Hd.
    - rewrite <- E2. unfold CmP, Cm_a2, CN_a2, CA_a2. field. exact Hd.
  Qed.
End AC.
