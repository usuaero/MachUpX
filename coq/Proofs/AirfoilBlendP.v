(* The per-pair slices fill exactly the two columns the interpolator reads: the blended coefficient is the linear
   interpolation between the two bracketing airfoils, on both sides (C16). *)
From Coq Require Import Reals Lra List Bool Lia.
From MuxV Require Import Base.Num Base.RInst Model.AirfoilBlend.
Import ListNotations.
Local Open Scope R_scope.

(* For a predicate that stays false along the list once it has failed, the count is the index at which it fails first.
   np.searchsorted on the stations and the slice bounds of either side are instances. *)
Section Count.
  Variable p : R -> bool.
  Definition prefix_closed (l : list R) : Prop :=
    forall a b, (a <= b)%nat -> (b < length l)%nat -> p (nth a l 0) = false -> p (nth b l 0) = false.

  Lemma count_cons c r : count p (c :: r) = ((if p c then 1 else 0) + count p r)%nat.
  Proof. unfold count. cbn [filter]. destruct (p c); reflexivity. Qed.
  Lemma count_le l : (count p l <= length l)%nat.
  Proof. induction l as [|c r IH]; [cbn; lia|]. rewrite count_cons. cbn [length]. destruct (p c); lia. Qed.
  Lemma count_all_false l : (forall a, (a < length l)%nat -> p (nth a l 0) = false) -> count p l = 0%nat.
  Proof.
    induction l as [|c r IH]; intros H; [reflexivity|]. rewrite count_cons, (H 0%nat : _ -> p c = false) by (cbn [length]; lia).
    apply IH. intros a Ha. apply (H (S a)). cbn [length]; lia.
  Qed.

  Lemma count_ltb l i : prefix_closed l -> (i < length l)%nat -> (i <? count p l)%nat = p (nth i l 0).
  Proof.
    revert i; induction l as [|c r IH]; intros i Hpc Hi; [inversion Hi|]. cbn [length] in Hi.
    rewrite count_cons. destruct (p c) eqn:E.
    - destruct i as [|i]; [symmetry; exact E|]. apply IH; [|lia].
      intros a b Hab Hb. apply (Hpc (S a) (S b)); cbn [length]; lia.
    - assert (Hf : forall a, (a < length r)%nat -> p (nth a r 0) = false).
      { intros a Ha. apply (Hpc 0%nat (S a)); [lia|cbn [length]; lia|exact E]. }
      rewrite (count_all_false r Hf). destruct i as [|i]; symmetry; [exact E|apply Hf; lia].
  Qed.
End Count.

Definition ascending (l : list R) : Prop := forall a b, (a <= b)%nat -> (b < length l)%nat -> nth a l 0 <= nth b l 0.
Definition descending (l : list R) : Prop := forall a b, (a <= b)%nat -> (b < length l)%nat -> nth b l 0 <= nth a l 0.
Definition strictly_increasing (l : list R) : Prop := forall a b, (a < b)%nat -> (b < length l)%nat -> nth a l 0 < nth b l 0.

Lemma asc_lt_closed l s : ascending l -> prefix_closed (fun c => Rltb c s) l.
Proof. intros H a b Hab Hb Hp. apply Rltb_false in Hp. apply Rltb_false. pose proof (H a b Hab Hb). lra. Qed.
Lemma asc_le_closed l s : ascending l -> prefix_closed (fun c => Rleb c s) l.
Proof. intros H a b Hab Hb Hp. apply Rleb_false in Hp. apply Rleb_false. pose proof (H a b Hab Hb). lra. Qed.
Lemma desc_gt_closed l s : descending l -> prefix_closed (fun c => Rltb s c) l.
Proof. intros H a b Hab Hb Hp. apply Rltb_false in Hp. apply Rltb_false. pose proof (H a b Hab Hb). lra. Qed.
Lemma strict_asc l : strictly_increasing l -> ascending l.
Proof. intros H a b Hab Hb. destruct (Nat.eq_dec a b) as [->|Hn]; [lra|]. apply Rlt_le. apply H; lia. Qed.

(* the conclusion is left unfolded: up to conversion it is [descending (x :: l)] for left_side = true and [ascending (x :: l)]
   for false *)
Fixpoint chain (left_side : bool) (x : R) (l : list R) : Prop :=
  match l with [] => True | y :: r => (if left_side then y <= x else x <= y) /\ chain left_side y r end.
Lemma chain_ordered (left_side : bool) x l : chain left_side x l ->
  forall a b, (a <= b)%nat -> (b < length (x :: l))%nat ->
  if left_side then nth b (x :: l) 0 <= nth a (x :: l) 0 else nth a (x :: l) 0 <= nth b (x :: l) 0.
Proof.
  revert x; induction l as [|y r IH]; intros x Hc a [|b] Hab Hb;
    try (replace a with 0%nat by lia; destruct left_side; apply Rle_refl).
  - cbn in Hb; lia.
  - destruct Hc as [Hxy Hc]. cbn [length] in *. destruct a as [|a]; [|apply (IH y Hc); lia].
    pose proof (IH y Hc 0%nat b ltac:(lia) ltac:(lia)) as H. destruct left_side; cbn [nth] in *; lra.
Qed.

(* the stations are only non-decreasing: a step change repeats a station *)
Lemma searchsorted_lt spans x i : ascending spans -> (i < length spans)%nat ->
  (i < searchsorted spans x)%nat <-> nth i spans 0 < x.
Proof.
  intros Hs Hi. rewrite <- Nat.ltb_lt, <- Rltb_true.
  unfold searchsorted. rewrite (count_ltb (fun s => Rltb s x)) by auto using asc_lt_closed. reflexivity.
Qed.
Lemma searchsorted_between spans x j : ascending spans -> (S j < length spans)%nat ->
  nth j spans 0 < x <= nth (S j) spans 0 -> searchsorted spans x = S j.
Proof.
  intros Hs Hj [H1 H2]. apply (searchsorted_lt spans x j Hs) in H1; [|lia].
  assert (~ (S j < searchsorted spans x)%nat) by (rewrite searchsorted_lt by assumption; lra). lia.
Qed.
Lemma searchsorted_first spans x : strictly_increasing spans -> (0 < length spans)%nat -> x <= nth 0 spans 0 -> searchsorted spans x = 0%nat.
Proof.
  intros Hs Hl Hx. assert (~ (0 < searchsorted spans x)%nat) by (rewrite searchsorted_lt by auto using strict_asc; lra). lia.
Qed.

Lemma slices_right_nth cps st prev j : (j < length st)%nat ->
  nth j (slices_right cps st prev) (0%nat, 0%nat) =
  (match j with 0%nat => prev | S j' => count (fun c => Rleb c (nth j' st 0)) cps end, count (fun c => Rleb c (nth j st 0)) cps).
Proof.
  revert prev j; induction st as [|s r IH]; intros prev j Hj; [inversion Hj|].
  cbn [slices_right]. destruct j as [|j']; [reflexivity|]. cbn [nth]. rewrite IH by (cbn [length] in Hj; lia).
  destruct j'; reflexivity.
Qed.
Lemma slices_left_nth cps st prev j : (j < length st)%nat ->
  nth j (slices_left cps st prev) (0%nat, 0%nat) =
  (count (fun c => Rltb (nth j st 0) c) cps, match j with 0%nat => prev | S j' => count (fun c => Rltb (nth j' st 0) c) cps end).
Proof.
  revert prev j; induction st as [|s r IH]; intros prev j Hj; [inversion Hj|].
  cbn [slices_left]. destruct j as [|j']; [reflexivity|]. cbn [nth]. rewrite IH by (cbn [length] in Hj; lia).
  destruct j'; reflexivity.
Qed.

Lemma nth_tl {A} (l : list A) j d : nth j (tl l) d = nth (S j) l d.
Proof. destruct l; [destruct j; reflexivity|reflexivity]. Qed.
Lemma length_tl {A} (l : list A) : length (tl l) = (length l - 1)%nat.
Proof. destruct l; [reflexivity|apply eq_sym, Nat.sub_0_r]. Qed.
Lemma slices_len left_side cps spans : length (slices left_side cps spans) = (length spans - 1)%nat.
Proof.
  unfold slices. rewrite <- length_tl. destruct left_side; [generalize (length cps) | generalize 0%nat];
    (induction (tl spans) as [|s r IH]; intros prev; [reflexivity | cbn; rewrite IH; reflexivity]).
Qed.

Lemma in_slice_counts p q l i : prefix_closed p l -> prefix_closed q l -> (i < length l)%nat ->
  in_slice (count p l, count q l) i = negb (p (nth i l 0)) && q (nth i l 0).
Proof. intros Hp Hq Hi. unfold in_slice. cbn [fst snd]. rewrite Nat.leb_antisym, !count_ltb by assumption. reflexivity. Qed.

Lemma in_slice_iff (left_side : bool) cps spans i j :
  (if left_side then descending cps else ascending cps) -> (i < length cps)%nat -> (S j < length spans)%nat ->
  in_slice (nth j (slices left_side cps spans) (0%nat, 0%nat)) i = true <->
  (match j with 0%nat => True | _ => nth j spans 0 < nth i cps 0 end) /\ nth i cps 0 <= nth (S j) spans 0.
Proof.
  intros Hc Hi Hj. unfold slices. destruct left_side.
  - rewrite slices_left_nth by (rewrite length_tl; lia). destruct j as [|j].
    + (* the slice ends at length cps: only its start decides *)
      unfold in_slice. cbn [fst snd]. rewrite Nat.leb_antisym, count_ltb, (proj2 (Nat.ltb_lt _ _) Hi) by auto using desc_gt_closed.
      rewrite nth_tl, andb_true_r, negb_true_iff, Rltb_false. tauto.
    + rewrite in_slice_counts, !nth_tl, andb_true_iff, negb_true_iff, Rltb_false, Rltb_true by auto using desc_gt_closed. tauto.
  - rewrite slices_right_nth by (rewrite length_tl; lia). destruct j as [|j].
    + (* the slice starts at 0: only its end decides *)
      unfold in_slice. cbn [fst snd Nat.leb andb]. rewrite count_ltb, nth_tl, Rleb_true by auto using asc_le_closed. tauto.
    + rewrite in_slice_counts, !nth_tl, andb_true_iff, negb_true_iff, Rleb_false, Rleb_true by auto using asc_le_closed. tauto.
Qed.

Lemma coef_pair sls (fv : nat -> nat -> R) i j :
  (j < length sls)%nat -> in_slice (nth j sls (0%nat, 0%nat)) i = true ->
  coef sls fv i j = fv i j /\ coef sls fv i (S j) = fv i (S j).
Proof.
  intros Hj Hin. apply Nat.ltb_lt in Hj. unfold coef. rewrite Hj. cbn [Nat.sub]. rewrite Nat.sub_0_r, Hin.
  split; [reflexivity|]. destruct (_ && _); reflexivity.
Qed.

Theorem blend_spec (left_side : bool) (cps spans : list R) (fv : nat -> nat -> R) (i j : nat) :
  ascending spans -> (if left_side then descending cps else ascending cps) ->
  (i < length cps)%nat -> (S j < length spans)%nat ->
  nth j spans 0 < nth i cps 0 <= nth (S j) spans 0 ->
  blend_at left_side cps spans fv i =
    let d := (nth i cps 0 - nth j spans 0) / (nth (S j) spans 0 - nth j spans 0) in
    (1 - d) * fv i j + d * fv i (S j).
Proof.
  intros Hs Hc Hi Hj Hx. unfold blend_at. rnum.
  rewrite (searchsorted_between spans _ j Hs Hj Hx). cbn [Nat.sub]. rewrite Nat.sub_0_r.
  destruct (coef_pair (slices left_side cps spans) fv i j) as [-> ->]; [rewrite slices_len; lia| |reflexivity].
  apply in_slice_iff; try assumption. split; [destruct j; [exact I|]|]; apply Hx.
Qed.
