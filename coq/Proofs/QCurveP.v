(* The quarter-chord curve generated for a wing segment is the documented one (C12): the piece-wise accumulation of integrals between
   the sorted discontinuities is one integral from 0 (Chasles), the per-side signs of the code's integrands are those of the documented
   curve.  The left half is the mirror image of the right one (C04). *)
From Coq Require Import Reals List Psatz.
From Coquelicot Require Import Coquelicot.
From MuxV Require Import Base.Num Base.Vec3 Base.RInst Base.Interp Proofs.InterpP Proofs.VecP Model.QCurve.
Import ListNotations.

Fixpoint nondecr (x : R) (l : list R) : Prop := match l with [] => True | y :: r => x <= y /\ nondecr y r end.
Definition sortedR (l : list R) : Prop := match l with [] => True | x :: r => nondecr x r end.

Lemma last_cons {A} (y : A) r x : last (y :: r) x = last r y.
Proof.
  revert y x; induction r as [|a r IH]; intros y x; [reflexivity|].
  change (last (y :: a :: r) x) with (last (a :: r) x). rewrite (IH a x). symmetry. apply (IH a y).
Qed.
Lemma nondecr_last x l : nondecr x l -> x <= last l x.
Proof.
  revert x; induction l as [|y r IH]; intros x H; [simpl; lra|].
  destruct H as [H1 H2]. rewrite last_cons. specialize (IH _ H2). lra.
Qed.

Lemma insert_cons x y r : x <= y /\ insert x (y :: r) = x :: y :: r \/ y < x /\ insert x (y :: r) = y :: insert x r.
Proof.
  cbn [insert]. rnum. destruct (Rleb_spec x y); [left | right]; split; trivial.
Qed.
Lemma insert_nondecr x l lo : lo <= x -> nondecr lo l -> nondecr lo (insert x l).
Proof.
  revert lo; induction l as [|y r IH]; intros lo Hx Hl; [exact (conj Hx I)|].
  destruct Hl as [H1 H2]. destruct (insert_cons x y r) as [[E ->]|[E ->]].
  - exact (conj Hx (conj E H2)).
  - split; [exact H1 | apply IH; [lra | exact H2]].
Qed.
Lemma insert_sorted x l : sortedR l -> sortedR (insert x l).
Proof.
  destruct l as [|y r]; intro H; [exact I|]. destruct (insert_cons x y r) as [[E ->]|[E ->]].
  - exact (conj E H).
  - apply insert_nondecr; [lra | exact H].
Qed.
Lemma isort_sorted l : sortedR (isort l).
Proof. induction l as [|x r IH]; [exact I|]. apply insert_sorted; exact IH. Qed.
Theorem mk_discont_sorted (di sw : dist R) : sortedR (mk_discont di sw).
Proof. apply isort_sorted. Qed.

Lemma mk_discont_const a c : mk_discont (DConst a) (DConst c) = [0; 1].
Proof.
  unfold mk_discont, xs_of, add_new, memb. cbn [fold_left existsb app]. rnum.
  destruct (Reqb_spec 0 1); [lra|]. destruct (insert_cons 0 1 []) as [[_ E]|[E _]]; [exact E | lra].
Qed.

(* the third branch of [accum] is never taken over R *)
Lemma accum_additive (q : R -> R -> R) (b : R) : (forall a c d, q a c + q c d = q a d) ->
  forall rest prev s acc, prev <= s -> nondecr prev rest ->
  accum q b prev rest s acc = acc + q prev (Rmin s (last rest prev)) * b.
Proof.
  intros Hq. induction rest as [|d r IH]; intros prev s acc Hs Hnd.
  - cbn [accum last]. rewrite Rmin_right by exact Hs. replace (q prev prev) with 0 by (pose proof (Hq prev prev prev); lra). ring.
  - destruct Hnd as [H1 H2]. cbn [accum]. rewrite last_cons. rnum. destruct (Rltb_spec d s) as [E|E].
    + rewrite (IH d s _ (Rlt_le _ _ E) H2), <- (Hq prev d (Rmin s (last r d))). ring.
    + destruct (Rleb_spec s d); [|lra].
      pose proof (nondecr_last _ _ H2). rewrite Rmin_left by lra. reflexivity.
Qed.

Definition opp_if (neg : bool) (x : R) : R := if neg then - x else x.

(* g is the code's integrand, f the description's *)
Section Component.
  Variables (neg : bool) (f g : R -> R).
  Hypothesis Hg : forall s, g s = opp_if neg (f s).
  Hypothesis Hf : forall a b, ex_RInt f a b.

  Lemma is_RInt_code a b : is_RInt g a b (opp_if neg (RInt f a b)).
  Proof.
    apply (is_RInt_ext (fun s => opp_if neg (f s))); [intros; symmetry; apply Hg|].
    pose proof (RInt_correct f a b (Hf a b)) as H. destruct neg; [exact (is_RInt_opp f a b _ H) | exact H].
  Qed.

  Lemma accum_code b rest s : nondecr 0 rest -> 0 <= s <= last rest 0 ->
    accum (RInt g) b 0 rest s 0 = b * opp_if neg (RInt f 0 s).
  Proof.
    intros Hnd [Hs0 Hs1]. rewrite accum_additive; [| | exact Hs0 | exact Hnd].
    - rewrite Rmin_left by exact Hs1. rewrite (is_RInt_unique g 0 s _ (is_RInt_code 0 s)). ring.
    - intros a c d. apply (RInt_Chasles g a c d); eexists; apply is_RInt_code.
  Qed.
End Component.

Lemma is_derive_affine (F : R -> R) s f c k : is_derive F s f -> is_derive (fun u => c + k * F u) s (k * f).
Proof.
  intro H. evar_last. apply (is_derive_plus (fun _ => c) (fun u => k * F u)). apply is_derive_const.
  apply (is_derive_scal F s k f H). unfold plus, zero; simpl. ring.
Qed.
Lemma is_derive_affine_minus (F : R -> R) s f c k : is_derive F s f -> is_derive (fun u => c - k * F u) s (- k * f).
Proof.
  intro H. apply (is_derive_ext (fun u => c + (- k) * F u)); [|apply is_derive_affine; exact H].
  intro t. change (@eq R (c + - k * F t) (c - k * F t)). ring.
Qed.
Lemma RInt_var_derive (g : R -> R) (Hg : forall a b, ex_RInt g a b) s : continuous g s -> is_derive (fun u => RInt g 0 u) s (g s).
Proof.
  intro Hc. apply (is_derive_RInt g (fun u => RInt g 0 u) 0 s); [|exact Hc].
  exists (mkposreal 1 Rlt_0_1). intros u _. apply (RInt_correct (V := R_CompleteNormedModule)). apply Hg.
Qed.

(* convertible with [vmir], whose laws [vmir_add vmir_scale] apply as they are *)
Definition mirror_y (p : v3 R) : v3 R := V3 (vx p) (- vy p) (vz p).

Section Curve.
  Variable dr : R.                                   (* degrees to radians *)
  Variables (sw di : dist R).
  Let Lam (s : R) : R := angle_val dr sw s.          (* sweep and dihedral of the description, radians *)
  Let Gam (s : R) : R := angle_val dr di s.
  Hypothesis HiT : forall a b, ex_RInt (fun s => tan (Lam s)) a b.
  Hypothesis HiC : forall a b, ex_RInt (fun s => cos (Gam s)) a b.
  Hypothesis HiS : forall a b, ex_RInt (fun s => sin (Gam s)) a b.

  (* "advances with dx/ds = -tan(sweep) as a shear and with dihedral rotating the spanwise direction" *)
  Definition curve_spec (left_side : bool) (root : v3 R) (b s : R) : v3 R :=
    V3 (vx root - b * RInt (fun t => tan (Lam t)) 0 s)
       (if left_side then vy root - b * RInt (fun t => cos (Gam t)) 0 s else vy root + b * RInt (fun t => cos (Gam t)) 0 s)
       (vz root - b * RInt (fun t => sin (Gam t)) 0 s).

  (* quad is taken to be the Riemann integral *)
  Definition qc_code (left_side : bool) (root : v3 R) (b : R) (disc : list R) (s : R) : v3 R :=
    qc_standard left_side root (RInt (ig_x tan dr left_side sw)) (RInt (ig_y cos dr left_side di)) (RInt (ig_z sin dr left_side di)) b disc s.

  Lemma ig_x_sign left_side s : ig_x tan dr left_side sw s = opp_if left_side (tan (Lam s)).
  Proof. destruct left_side; [apply tan_neg | reflexivity]. Qed.
  Lemma ig_y_sign left_side s : ig_y cos dr left_side di s = opp_if true (cos (Gam s)).
  Proof. destruct left_side; [reflexivity | apply (f_equal Ropp), cos_neg]. Qed.
  Lemma ig_z_sign left_side s : ig_z sin dr left_side di s = opp_if left_side (sin (Gam s)).
  Proof. destruct left_side; [reflexivity|]. unfold ig_z, get_dihedral. rewrite sin_neg. apply Ropp_involutive. Qed.

  Theorem qc_standard_is_curve left_side root b rest s :
    nondecr 0 rest -> 0 <= s <= last rest 0 ->
    qc_code left_side root b (0 :: rest) s = curve_spec left_side root b s.
  Proof.
    intros Hnd Hs. unfold qc_code, qc_standard, ds_standard.
    rewrite (accum_code _ _ _ (ig_x_sign left_side) HiT), (accum_code _ _ _ (ig_y_sign left_side) HiC),
      (accum_code _ _ _ (ig_z_sign left_side) HiS) by assumption.
    unfold curve_spec, opp_if. destruct left_side; vec.
  Qed.

  Theorem curve_starts_at_root left_side root b : curve_spec left_side root b 0 = root.
  Proof.
    unfold curve_spec. rewrite !RInt_point. change (@zero R_CompleteNormedModule) with 0. destruct left_side; vec.
  Qed.

  Theorem curve_mirror root b s : curve_spec true (mirror_y root) b s = mirror_y (curve_spec false root b s).
  Proof. unfold curve_spec, mirror_y. vec. Qed.

  Theorem curve_tangent left_side root b s :
    continuous (fun t => tan (Lam t)) s -> continuous (fun t => cos (Gam t)) s -> continuous (fun t => sin (Gam t)) s ->
    is_derive (fun u => vx (curve_spec left_side root b u)) s (- b * tan (Lam s)) /\
    is_derive (fun u => vy (curve_spec left_side root b u)) s (if left_side then - b * cos (Gam s) else b * cos (Gam s)) /\
    is_derive (fun u => vz (curve_spec left_side root b u)) s (- b * sin (Gam s)).
  Proof.
    intros CT CC CS.
    pose proof (RInt_var_derive _ HiT s CT) as DT. pose proof (RInt_var_derive _ HiC s CC) as DC. pose proof (RInt_var_derive _ HiS s CS) as DS.
    unfold curve_spec. split; [|split].
    - apply (is_derive_affine_minus _ _ _ (vx root) b DT).
    - destruct left_side; [apply (is_derive_affine_minus _ _ _ (vy root) b DC) | apply (is_derive_affine _ _ _ (vy root) b DC)].
    - apply (is_derive_affine_minus _ _ _ (vz root) b DS).
  Qed.
End Curve.

Theorem qc_const_is_curve dr left_side root b (lam gam s : R) : 0 <= s <= 1 ->
  qc_code dr (DConst lam) (DConst gam) left_side root b (mk_discont (DConst lam) (DConst gam)) s =
  curve_spec dr (DConst lam) (DConst gam) left_side root b s.
Proof.
  intros Hs. pose proof (fun v a c => ex_RInt_const (V := R_NormedModule) a c v) as Hc. rewrite mk_discont_const.
  apply (qc_standard_is_curve dr (DConst lam) (DConst gam) (Hc (tan (lam * dr))) (Hc (cos (gam * dr))) (Hc (sin (gam * dr)))); cbn; lra.
Qed.
Theorem curve_spec_const dr left_side root b (lam gam s : R) :
  curve_spec dr (DConst lam) (DConst gam) left_side root b s =
  V3 (vx root - s * b * tan (lam * dr))
     (if left_side then vy root - s * b * cos (gam * dr) else vy root + s * b * cos (gam * dr))
     (vz root - s * b * sin (gam * dr)).
Proof.
  unfold curve_spec. cbn [angle_val]. rewrite !RInt_const. change (@scal R_Ring R_CompleteNormedModule) with Rmult.
  destruct left_side; vec.
Qed.

(* a constant [column] keeps the abscissae, and [incr] looks at nothing else *)
Definition incr_spans (tbl : list (R * v3 R)) : Prop := incr (column (fun _ => 0) tbl).
Lemma incr_column f tbl : incr_spans tbl -> incr (column f tbl).
Proof. apply incr_map. reflexivity. Qed.
Lemma interp_column f tbl t p : incr_spans tbl -> In (t, p) tbl -> interp t (column f tbl) = f p.
Proof.
  intros Hi Hin. apply interp_reproduces_nodes; [apply incr_column; exact Hi|].
  exact (in_map (fun r => (fst r, f (snd r))) tbl (t, p) Hin).
Qed.

Theorem qc_points_through left_side root tbl t p : incr_spans tbl -> In (t, p) tbl ->
  qc_points left_side root tbl t = V3 (vx root + vx p) (if left_side then vy root + - vy p else vy root + vy p) (vz root + vz p).
Proof. intros Hi Hin. unfold qc_points. rewrite !(interp_column _ tbl t p Hi Hin). destruct left_side; reflexivity. Qed.
Theorem qc_points_mirror root tbl s : qc_points true (mirror_y root) tbl s = mirror_y (qc_points false root tbl s).
Proof. unfold qc_points. rewrite vmir_add. reflexivity. Qed.

Fixpoint distinct_yz (py pz : R) (pts : list (v3 R)) : Prop :=
  match pts with [] => True | p :: r => (vy p <> py \/ vz p <> pz) /\ distinct_yz (vy p) (vz p) r end.
Lemma yz_pos (a b : R) : a <> 0 \/ b <> 0 -> 0 < sqrt (a * a + b * b).
Proof. intro H. apply sqrt_lt_R0. destruct H; nra. Qed.
Lemma step_pos py pz p : vy p <> py \/ vz p <> pz -> 0 < sqrt ((vy p - py) * (vy p - py) + (vz p - pz) * (vz p - pz)).
Proof. intro H. apply yz_pos. destruct H; [left | right]; lra. Qed.
Lemma cum_len_incr bdiv (Hb : 0 < bdiv) pts : forall py pz acc, distinct_yz py pz pts ->
  incr_from (acc / bdiv) (column (fun _ => 0) (combine (map (fun c => c / bdiv) (cum_len py pz acc pts)) pts)).
Proof.
  induction pts as [|p r IH]; intros py pz acc H; [exact I|].
  destruct H as [H1 H2]. cbn [cum_len map combine column List.map fst]. rnum. split; [|apply IH; exact H2].
  pose proof (step_pos py pz p H1). apply Rmult_lt_compat_r; [apply Rinv_0_lt_compat; exact Hb | lra].
Qed.
Lemma cum_len_last pts : forall py pz acc d, pts <> [] -> distinct_yz py pz pts -> acc < last (cum_len py pz acc pts) d.
Proof.
  induction pts as [|p r IH]; intros py pz acc d Hne H; [congruence|].
  destruct H as [H1 H2]. cbn [cum_len]. rnum. rewrite last_cons. pose proof (step_pos py pz p H1).
  destruct r as [|p2 r2]; [cbn [cum_len last]; lra|].
  eapply Rlt_trans; [|apply IH; [congruence | exact H2]]. lra.
Qed.
Theorem qc_table_incr pts : pts <> [] -> distinct_yz 0 0 pts -> incr_spans (qc_table pts).
Proof.
  intros Hne H. unfold incr_spans, qc_table, incr.
  apply cum_len_incr; [|exact H]. apply cum_len_last; assumption.
Qed.

Theorem unswept_triad tw di :
  let a := unswept_axial cos sin tw di in let n := unswept_normal cos sin tw di in let s := unswept_span cos sin di in
  vdot a a = 1 /\ vdot n n = 1 /\ vdot s s = 1 /\ vdot a n = 0 /\ vdot a s = 0 /\ vdot n s = 0.
Proof.
  unfold unswept_axial, unswept_normal, unswept_span. vec_unfold.
  pose proof (sin2 tw : sin tw * sin tw = 1 - cos tw * cos tw) as Ht.
  pose proof (sin2 di : sin di * sin di = 1 - cos di * cos di) as Hd.
  repeat split; ring [Ht Hd].
Qed.
Lemma ll_displacement qc off chord ua : vsub (ll_loc qc off chord ua) qc = vscale (off * chord) ua.
Proof. apply vsub_add_cancel. Qed.
Theorem ll_offset_distance qc off chord tw di :
  let d := vsub (ll_loc qc off chord (unswept_axial cos sin tw di)) qc in
  vdot d d = (off * chord) * (off * chord) /\ vdot d (unswept_span cos sin di) = 0 /\ vdot d (unswept_normal cos sin tw di) = 0.
Proof.
  cbv zeta. rewrite ll_displacement, !vdot_scale_l, vdot_scale_r.
  pose proof (unswept_triad tw di) as (Haa & _ & _ & Han & Has & _). rewrite Haa, Has, Han, Rmult_1_r, Rmult_0_r. repeat split; reflexivity.
Qed.
Theorem ll_offset_zero qc chord ua : ll_loc qc 0 chord ua = qc.
Proof. unfold ll_loc. vec. Qed.

Theorem delta_origin_mirror dx dy dz yoff : delta_origin true dx (- dy) dz yoff = mirror_y (delta_origin false dx dy dz yoff).
Proof. unfold delta_origin, mirror_y. vec. Qed.
Theorem attach_at_root_removes_offset left_side origin dx dy dz yoff :
  attach_at_root left_side (root_loc origin (delta_origin left_side dx dy dz yoff)) yoff = vadd origin (V3 dx dy dz).
Proof. unfold attach_at_root, root_loc, delta_origin. destruct left_side; vec. Qed.

Theorem getters_mirror dr d s :
  get_dihedral dr true d s = - get_dihedral dr false d s /\ get_sweep dr true d s = - get_sweep dr false d s.
Proof. split; [symmetry; apply Ropp_involutive | reflexivity]. Qed.
(* the span vector is not reflected but stays pointing from left to right: it is minus the mirror image *)
Theorem unswept_vectors_mirror tw di :
  unswept_axial cos sin tw (- di) = mirror_y (unswept_axial cos sin tw di) /\
  unswept_normal cos sin tw (- di) = mirror_y (unswept_normal cos sin tw di) /\
  unswept_span cos sin (- di) = V3 0 (cos di) (- sin di).
Proof.
  unfold unswept_axial, unswept_normal, unswept_span, mirror_y. rewrite cos_neg, sin_neg. repeat split; vec.
Qed.
Theorem ll_loc_mirror qc off chord ua : ll_loc (mirror_y qc) off chord (mirror_y ua) = mirror_y (ll_loc qc off chord ua).
Proof. unfold ll_loc. rewrite vmir_add, vmir_scale. reflexivity. Qed.
