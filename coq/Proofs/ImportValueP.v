(* import_value: annotated values import as their pre-converted counterparts (C06), for the shapes MachUpX reads - a scalar, a vector of
   three or four, the elliptic chord, an array of two columns; a pair with a unit is a vector, a plain pair is not. *)
From Coq Require Import List Bool String.
From MuxV Require Import Base.Num Model.ImportValue.
Import ListNotations.

Section Import.
  Context {T : Type} {N : Num T}.
  Local Open Scope num_scope.
  Variable factor : string -> option T.
  Notation imp := (import_value factor).
  Notation conv := (convert_units factor).

  Definition known (u : string) (f : T -> T) : Prop :=
    (u = "-" /\ f = (fun x => x)) \/ (u <> "-" /\ exists k, factor (strip u) = Some k /\ f = (fun x => x * k)).

  Lemma conv_known u f x : known u f -> conv x u = Some (f x).
  Proof.
    unfold convert_units. intros [[-> ->]|[Hn [k [Hk ->]]]]; [reflexivity|].
    destruct (String.eqb_spec u "-"); [contradiction|]. rewrite Hk; reflexivity.
  Qed.
  Lemma conv_unknown u x : u <> "-" -> factor (strip u) = None -> conv x u = None.
  Proof. intros Hn Hk. unfold convert_units. destruct (String.eqb_spec u "-"); [contradiction|]. rewrite Hk; reflexivity. Qed.

  Lemma int_eq_float z : imp (PInt z) = imp (PFloat (nofZ z)).
  Proof. reflexivity. Qed.

  Lemma scalar_units x u f : known u f -> imp (PList [PFloat x; PStr u]) = imp (PFloat (f x)).
  Proof. intros Hk. cbn. rewrite (conv_known u f x Hk). reflexivity. Qed.
  Lemma scalar_int_units z u f : known u f -> imp (PList [PInt z; PStr u]) = imp (PFloat (f (nofZ z))).
  Proof. apply scalar_units. Qed.
  Lemma scalar_unknown_unit x u : u <> "-" -> factor (strip u) = None -> imp (PList [PFloat x; PStr u]) = IRaise EIOError.
  Proof. intros Hn Hk. cbn. rewrite (conv_unknown u x Hn Hk). reflexivity. Qed.

  Lemma vector3_units a b c u f : known u f ->
    imp (PList [PFloat a; PFloat b; PFloat c; PStr u]) = imp (PList [PFloat (f a); PFloat (f b); PFloat (f c)]).
  Proof. intros Hk. cbn. rewrite !(conv_known u f _ Hk). reflexivity. Qed.
  Lemma vector4_units a b c d u f : known u f ->
    imp (PList [PFloat a; PFloat b; PFloat c; PFloat d; PStr u]) =
    imp (PList [PFloat (f a); PFloat (f b); PFloat (f c); PFloat (f d)]).
  Proof. intros Hk. cbn. rewrite !(conv_known u f _ Hk). reflexivity. Qed.

  Lemma elliptic_units c u f : known u f ->
    imp (PList [PStr "elliptic"; PFloat c; PStr u]) = imp (PList [PStr "elliptic"; PFloat (f c)]).
  Proof. intros Hk. cbn. rewrite (conv_known u f c Hk). reflexivity. Qed.

  Lemma if_true {A} (b : bool) (x y : A) : b = true -> (if b then x else y) = x.
  Proof. intros ->. reflexivity. Qed.

  Lemma imp_unit_row l s us : imp (PList (l ++ [PList (PStr s :: us)])) =
    match strs_of us, rows_of l with
    | Some ustrs, Some rows => match conv_rows factor rows (s :: ustrs) with Some r => IArr r | None => IRaise EIOError end
    | _, _ => IRaise EValueError
    end.
  Proof.
    assert (E : existsb is_list (l ++ [PList (PStr s :: us)]) = true) by (rewrite existsb_app; apply orb_true_r).
    (* [import_value] is not unfolded (its scalar/vector branch repeats a large match on the string "elliptic"); [if_true] selects
       the array branch by conversion *)
    etransitivity; [apply (if_true _ _ _ E)|]. unfold last_py. rewrite last_last, removelast_last.
    cbn [first_of_row is_str strs_of]. destruct (strs_of us); reflexivity.
  Qed.
  Lemma imp_plain_array l : existsb is_list l = true -> is_str (first_of_row (last_py l)) = false ->
    imp (PList l) = match rows_of l with Some rows => IArr rows | None => IRaise EValueError end.
  Proof. intros E1 E2. etransitivity; [apply (if_true _ _ _ E1)|]. rewrite E2. reflexivity. Qed.

  (* two columns: every MachUpX distribution *)
  Definition row2 (r : T * T) : pyval T := PList [PFloat (fst r); PFloat (snd r)].
  Notation arr2 rows := (map row2 rows).
  Notation nums2 rows := (map (fun r => [fst r; snd r]) rows).

  Lemma rows_of_arr2 rows : rows_of (arr2 rows) = Some (nums2 rows).
  Proof. induction rows as [|r rows IH]; [reflexivity|]. cbn [map rows_of row2 nums_of num_of]. rewrite IH. reflexivity. Qed.
  Lemma imp_arr2 rows : rows <> [] -> imp (PList (arr2 rows)) = IArr (nums2 rows).
  Proof.
    intros Hne. rewrite imp_plain_array, rows_of_arr2; [reflexivity | |]; destruct (exists_last Hne) as (rows0 & r & ->); rewrite map_last.
    - rewrite existsb_app. apply orb_true_r.
    - unfold last_py. rewrite last_last. reflexivity.
  Qed.
  Lemma conv_rows_arr2 rows u1 u2 f1 f2 : known u1 f1 -> known u2 f2 ->
    conv_rows factor (nums2 rows) [u1; u2] = Some (nums2 (map (fun r => (f1 (fst r), f2 (snd r))) rows)).
  Proof.
    intros H1 H2. induction rows as [|r rows IH]; [reflexivity|]. cbn [map conv_rows conv_row fst snd].
    rewrite (conv_known u1 f1 _ H1), (conv_known u2 f2 _ H2), IH. reflexivity.
  Qed.

  Lemma array2_units rows u1 u2 f1 f2 : rows <> [] -> known u1 f1 -> known u2 f2 ->
    imp (PList (arr2 rows ++ [PList [PStr u1; PStr u2]])) =
    imp (PList (arr2 (map (fun r => (f1 (fst r), f2 (snd r))) rows))).
  Proof.
    intros Hne H1 H2. rewrite imp_unit_row, rows_of_arr2. cbn [strs_of]. rewrite (conv_rows_arr2 rows u1 u2 f1 f2 H1 H2).
    rewrite imp_arr2; [reflexivity|]. destruct rows; [congruence | discriminate].
  Qed.

  Lemma array2_unknown_unit rows u1 u2 f1 : rows <> [] -> known u1 f1 -> u2 <> "-" -> factor (strip u2) = None ->
    imp (PList (arr2 rows ++ [PList [PStr u1; PStr u2]])) = IRaise EIOError.
  Proof.
    intros Hne H1 Hn Hk. rewrite imp_unit_row, rows_of_arr2. cbn [strs_of].
    destruct rows as [|r rows]; [congruence|]. cbn [map conv_rows conv_row].
    rewrite (conv_known u1 f1 _ H1), (conv_unknown u2 _ Hn Hk). reflexivity.
  Qed.

  Lemma missing_key : imp PNone = IRaise EIOError.
  Proof. reflexivity. Qed.
End Import.
