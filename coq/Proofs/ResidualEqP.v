(* Equivariance of the lifting-line residual under similarity maps (orthogonal O with det O = sigma = +-1, uniform scale k > 0):
   with circulations scaled by k, the residual scales by k^2.  k = 1 with a rotation gives rigid-motion invariance (C03), k = 1 with
   the reflection [vmir], sigma = -1, mirror symmetry (C04), O = id dynamic similarity in length (C05); [Speed] is its similarity
   in airspeed. *)
From Coq Require Import Reals Lra List.
From MuxV Require Import Base.Vec3 Base.RInst Model.Kernel Model.Residual Proofs.KernelP.
Import ListNotations.
Local Open Scope R_scope.

Definition vip (opt : opts) (c : cpt R) (v : v3 R) : v3 R := if use_in_plane opt then in_plane c v else v.
(* the fields of [sec_state] as equations, so that the lemmas below rewrite one field and never unfold the record *)
Section SecState.
  Variables (fatan2 : R -> R -> R) (opt : opts) (c : cpt R) (S : section R) (v : v3 R).
  Let s := sec_state fatan2 opt c S v.
  Lemma s_V2_eq : s_V2 s = vdot (vip opt c v) (vip opt c v). Proof. reflexivity. Qed.
  Lemma s_Re_eq : s_Re s = sqrt (s_V2 s) * ccbar c / cnu c. Proof. reflexivity. Qed.
  Lemma s_M_eq : s_M s = sqrt (s_V2 s) / csos c. Proof. reflexivity. Qed.
  Lemma s_alpha_eq : s_alpha s = fatan2 (vdot v (cun c)) (vdot v (cua c)). Proof. reflexivity. Qed.
End SecState.

Section Eq.
  Variable O : v3 R -> v3 R.
  Hypothesis O_add : forall a b, O (vadd a b) = vadd (O a) (O b).
  Hypothesis O_scale : forall k a, O (vscale k a) = vscale k (O a).
  Hypothesis O_dot : forall a b, vdot (O a) (O b) = vdot a b.
  (* sigma = -1: a reflection, under which every horseshoe is re-oriented (inbound <-> outbound node), so that dl and the span
     vector u_s change sign relative to the mapped ones: the factors sigma in [Tc] *)
  Variable sigma : R.
  Hypothesis sigma_sq : sigma * sigma = 1.
  Hypothesis O_cross : forall a b, vcross (O a) (O b) = vscale sigma (O (vcross a b)).
  Variable k : R.
  Hypothesis kpos : 0 < k.
  Variable fatan2 : R -> R -> R.
  Variable opt : opts.

  Definition Tc (c : cpt R) : cpt R :=
    mk_cpt (vscale (k * sigma) (O (cdl c))) (O (cua c)) (O (cun c)) (vscale sigma (O (cus c))) (k * k * cdS c) (k * ccbar c) (cnu c) (csos c) (ccsi c)
           (O (cvinf c)) (O (cvrot c)).
  Definition TV (V : v3 R) : v3 R := vscale (1 / k) (O V).

  Lemma TV_scaler V x : vscaler (TV V) (k * x) = O (vscaler V x).
  Proof. unfold TV, Rdiv. rewrite !vscaler_as_vscale, O_scale, vscale_vscale, Rmult_1_l, Rinv_r_simpl_m by lra. reflexivity. Qed.
  Lemma induced_sim Vr g : induced (map TV Vr) (map (Rmult k) g) = O (induced Vr g).
  Proof.
    revert g; induction Vr as [|V Vr IH]; intros [|x g]; cbn [map induced]; try (symmetry; apply (lin_zero O O_scale)).
    rewrite IH, O_add, TV_scaler. reflexivity.
  Qed.
  Lemma v_local_sim c Vr g : v_local (Tc c) (map TV Vr) (map (Rmult k) g) = O (v_local c Vr g).
  Proof. unfold v_local, vinf_rot. rewrite induced_sim, !O_add. reflexivity. Qed.
  Lemma in_plane_sim c v : in_plane (Tc c) (O v) = O (in_plane c v).
  Proof.
    unfold in_plane. cbn [Tc cus]. rewrite vdot_scale_l, O_dot, (lin_sub O), O_scale, vscale_vscale by assumption.
    rewrite (Rmult_comm sigma (vdot _ _)), Rmult_assoc, sigma_sq, Rmult_1_r. reflexivity.
  Qed.

  Lemma vip_sim c v : vip opt (Tc c) (O v) = O (vip opt c v).
  Proof. unfold vip. destruct (use_in_plane opt); [apply in_plane_sim | reflexivity]. Qed.

  Definition re_independent (S : section R) : Prop :=
    forall a r r' m, sCL S a r m = sCL S a r' m /\ sCLa S a r m = sCLa S a r' m /\ saL0 S r m = saL0 S r' m.

  Lemma Vinf_raw_sim c : Vinf_raw (Tc c) = Vinf_raw c.
  Proof. unfold Vinf_raw, Vinf_of. cbn [Tc cvinf]. rewrite O_dot. reflexivity. Qed.
  Lemma Vinf_ip_sim c : Vinf_ip (Tc c) = Vinf_ip c.
  Proof. unfold Vinf_ip, Vinf_of. cbn [Tc cvinf]. rewrite in_plane_sim, O_dot. reflexivity. Qed.

  Definition cl_of (S : section R) (csi al Re M : R) : R :=
    if (use_swept opt && negb (match_pro opt))%bool
    then sCL S al Re M + sCLa S al Re M * (saL0 S Re M - saL0 S Re M * csi) else sCL S al Re M.
  Lemma s_CL_eq c S v :
    s_CL (sec_state fatan2 opt c S v) =
    cl_of S (ccsi c) (s_alpha (sec_state fatan2 opt c S v)) (s_Re (sec_state fatan2 opt c S v)) (s_M (sec_state fatan2 opt c S v)).
  Proof. reflexivity. Qed.
  Lemma cl_of_indep S csi a r r' m m' :
    sCL S a r m = sCL S a r' m' /\ sCLa S a r m = sCLa S a r' m' /\ saL0 S r m = saL0 S r' m' -> cl_of S csi a r m = cl_of S csi a r' m'.
  Proof. intros [H1 [H2 H3]]. unfold cl_of. rewrite H1, H2, H3. reflexivity. Qed.

  Notation st := (sec_state fatan2 opt).
  Lemma s_V2_sim c S v : s_V2 (st (Tc c) S (O v)) = s_V2 (st c S v).
  Proof. rewrite !s_V2_eq, vip_sim, O_dot. reflexivity. Qed.
  Lemma s_alpha_sim c S v : s_alpha (st (Tc c) S (O v)) = s_alpha (st c S v).
  Proof. rewrite !s_alpha_eq. cbn [Tc cua cun]. rewrite !O_dot. reflexivity. Qed.
  Lemma s_M_sim c S v : s_M (st (Tc c) S (O v)) = s_M (st c S v).
  Proof. rewrite !s_M_eq, s_V2_sim. reflexivity. Qed.
  Lemma s_Re_sim c S v : s_Re (st (Tc c) S (O v)) = k * s_Re (st c S v).
  Proof. rewrite !s_Re_eq, s_V2_sim. cbn [Tc ccbar cnu]. lra. Qed.
  Lemma s_CL_sim c S v : k = 1 \/ re_independent S -> s_CL (st (Tc c) S (O v)) = s_CL (st c S v).
  Proof.
    intros Hs. rewrite !s_CL_eq, s_alpha_sim, s_Re_sim, s_M_sim.
    destruct Hs as [Hk|Hind]; [rewrite Hk, Rmult_1_l; reflexivity | apply cl_of_indep, Hind].
  Qed.
  Lemma lift_V2_sim c S v : lift_V2 opt (Tc c) (st (Tc c) S (O v)) = lift_V2 opt c (st c S v).
  Proof. unfold lift_V2, Vinf_sel. rewrite !Vinf_raw_sim, !Vinf_ip_sim, s_V2_sim. reflexivity. Qed.
  (* dl is k sigma times the mapped one, and the cross product brings another sigma *)
  Lemma wvec_norm_sim c v : vnorm (wvec (Tc c) (O v)) = k * vnorm (wvec c v).
  Proof.
    unfold wvec. cbn [Tc cdl]. rewrite vcross_scale_r, O_cross, vscale_vscale, Rmult_assoc, sigma_sq, Rmult_1_r.
    rewrite vnorm_scale, (isom_norm O) by (assumption || lra). reflexivity.
  Qed.

  Theorem residual_at_sim c S Vr g gi : k = 1 \/ re_independent S ->
    residual_at fatan2 opt (Tc c) S (map TV Vr) (map (Rmult k) g) (k * gi) = k * k * residual_at fatan2 opt c S Vr g gi.
  Proof.
    intros Hs. unfold residual_at. rewrite v_local_sim, wvec_norm_sim, lift_V2_sim, (s_CL_sim _ _ _ Hs).
    cbn [Tc cdS]. rnum. lra.
  Qed.
End Eq.
Lemma TV_1 O V : TV O 1 V = O V.
Proof. unfold TV, Rdiv. rewrite Rinv_1, Rmult_1_l. apply vscale_1_l. Qed.

Section Speed.
  Variable lam : R.
  Hypothesis lpos : 0 < lam.
  Variable fatan2 : R -> R -> R.
  (* atan2 is homogeneous of degree 0 for lam > 0; assumed here and by the theorem of C05, proved of no concrete [fatan2] *)
  Hypothesis atan2_hom : forall y x, fatan2 (lam * y) (lam * x) = fatan2 y x.
  Variable opt : opts.

  Definition Tl (c : cpt R) : cpt R :=
    mk_cpt (cdl c) (cua c) (cun c) (cus c) (cdS c) (ccbar c) (cnu c) (csos c) (ccsi c) (vscale lam (cvinf c)) (vscale lam (cvrot c)).
  Definition rm_independent (S : section R) : Prop :=
    forall a r r' m m', sCL S a r m = sCL S a r' m' /\ sCLa S a r m = sCLa S a r' m' /\ saL0 S r m = saL0 S r' m'.

  Lemma v_local_speed c Vr g : v_local (Tl c) Vr (map (Rmult lam) g) = vscale lam (v_local c Vr g).
  Proof. unfold v_local, vinf_rot. cbn [Tl cvinf cvrot]. rewrite induced_scale, <- !vscale_add. reflexivity. Qed.
  Lemma in_plane_speed c v : in_plane (Tl c) (vscale lam v) = vscale lam (in_plane c v).
  Proof. unfold in_plane. cbn [Tl cus]. vec. Qed.
  Lemma vip_speed c v : vip opt (Tl c) (vscale lam v) = vscale lam (vip opt c v).
  Proof. unfold vip. destruct (use_in_plane opt); [apply in_plane_speed | reflexivity]. Qed.
  Notation st := (sec_state fatan2 opt).
  Lemma s_V2_speed c S v : s_V2 (st (Tl c) S (vscale lam v)) = lam * lam * s_V2 (st c S v).
  Proof. rewrite !s_V2_eq, vip_speed, vdot_scale_l, vdot_scale_r. symmetry. apply Rmult_assoc. Qed.
  Lemma s_alpha_speed c S v : s_alpha (st (Tl c) S (vscale lam v)) = s_alpha (st c S v).
  Proof. rewrite !s_alpha_eq, !vdot_scale_l. apply atan2_hom. Qed.
  Lemma s_CL_speed c S v : rm_independent S -> s_CL (st (Tl c) S (vscale lam v)) = s_CL (st c S v).
  Proof.
    intros Hs. rewrite !s_CL_eq, s_alpha_speed. apply cl_of_indep, Hs.
  Qed.
  Lemma Vinf_raw_speed c : Vinf_raw (Tl c) = lam * Vinf_raw c.
  Proof. exact (vnorm_scale lam (cvinf c) (Rlt_le _ _ lpos)). Qed.
  Lemma Vinf_ip_speed c : Vinf_ip (Tl c) = lam * Vinf_ip c.
  Proof. unfold Vinf_ip. cbn [Tl cvinf]. rewrite in_plane_speed. exact (vnorm_scale lam _ (Rlt_le _ _ lpos)). Qed.
  Lemma lift_V2_speed c S v : lift_V2 opt (Tl c) (st (Tl c) S (vscale lam v)) = lam * lam * lift_V2 opt c (st c S v).
  Proof.
    unfold lift_V2, Vinf_sel. rewrite Vinf_raw_speed, Vinf_ip_speed, s_V2_speed.
    destruct (match_pro opt); [apply Rsqr_mult|]. destruct (use_total opt); [reflexivity|]. destruct (use_in_plane opt); apply Rsqr_mult.
  Qed.
  Lemma wvec_norm_speed c v : vnorm (wvec (Tl c) (vscale lam v)) = lam * vnorm (wvec c v).
  Proof. unfold wvec. rewrite vcross_scale_l. apply vnorm_scale, Rlt_le, lpos. Qed.

  Theorem residual_at_speed c S Vr g gi : rm_independent S ->
    residual_at fatan2 opt (Tl c) S Vr (map (Rmult lam) g) (lam * gi) = lam * lam * residual_at fatan2 opt c S Vr g gi.
  Proof.
    intros Hs. unfold residual_at. rewrite v_local_speed, wvec_norm_speed, lift_V2_speed, (s_CL_speed _ _ _ Hs).
    cbn [Tl cdS]. rnum. lra.
  Qed.
End Speed.
