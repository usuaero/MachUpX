(* Order of attachment (C12): both loops only permute the segments; when the second loop stops because nothing moves, no segment stands in
   front of the segment it connects to (so every segment finds its parent already attached).  That the second loop leaves a settled
   order as it is (descriptions that loaded before MachUpX's fix aa4a7c8, which added that loop, keep their order) and the statements
   about [load_order] as a whole are proved where they are stated, in Props/C12.v. *)
From Coq Require Import List Arith Permutation.
From MuxV Require Import Model.LoadOrder.
Import ListNotations.

(* both loops take a segment and put it back somewhere: [Add] *)
Lemma insert_before_Add k : forall l l', insert_before_dependent k l = Some l' -> Add k l l'.
Proof.
  induction l as [|x r IH]; intros l'; cbn [insert_before_dependent]; [discriminate|].
  destruct (Nat.eqb (spar x) (sID k)); [intros [= <-]; constructor|].
  destruct (insert_before_dependent k r) as [r'|]; [|discriminate]. intros [= <-]. constructor. apply IH. reflexivity.
Qed.

Lemma place_perm l k : Permutation (k :: l) (place l k).
Proof.
  unfold place. destruct (insert_before_dependent k l) as [l'|] eqn:E; [exact (Permutation_Add (insert_before_Add k l l' E))|apply Permutation_cons_append].
Qed.

Theorem first_order_perm input : Permutation input (first_order input).
Proof.
  enough (G : forall acc, Permutation (input ++ acc) (fold_left place input acc))
    by (specialize (G []); rewrite app_nil_r in G; exact G).
  induction input as [|k r IH]; intros acc; [reflexivity|].
  apply (perm_trans (Permutation_middle _ _ _)), (perm_trans (Permutation_app_head _ (place_perm _ _))), IH.
Qed.

Lemma insert_after_Add x : forall r r', insert_after_parent x r = Some r' -> Add x r r'.
Proof.
  induction r as [|y r IH]; intros r'; cbn [insert_after_parent]; [discriminate|].
  destruct (Nat.eqb (sID y) (spar x)); [intros [= <-]; repeat constructor|].
  destruct (insert_after_parent x r) as [r1|]; [|discriminate]. intros [= <-]. constructor. apply IH. reflexivity.
Qed.

Lemma fix_step_perm : forall l l', fix_step l = Some l' -> Permutation l l'.
Proof.
  induction l as [|x r IH]; intros l'; cbn [fix_step]; [discriminate|].
  destruct (insert_after_parent x r) as [r'|] eqn:E; [intros [= <-]; exact (Permutation_Add (insert_after_Add x r r' E))|].
  destruct (fix_step r) as [r1|]; [|discriminate]. intros [= <-]. apply perm_skip, IH. reflexivity.
Qed.

Lemma fixup_perm fuel : forall l, Permutation l (fixup fuel l).
Proof.
  induction fuel as [|f IH]; intros l; cbn [fixup]; [reflexivity|].
  destruct (fix_step l) as [l'|] eqn:E; [|reflexivity]. exact (perm_trans (fix_step_perm l l' E) (IH l')).
Qed.

Lemma insert_after_none x : forall r, insert_after_parent x r = None -> forall y, In y r -> sID y <> spar x.
Proof.
  induction r as [|z r IH]; cbn [insert_after_parent]; intros E y Hy; [destruct Hy|].
  destruct (Nat.eqb (sID z) (spar x)) eqn:Ez; [discriminate|]. destruct (insert_after_parent x r); [discriminate|].
  destruct Hy as [<-|Hy]; [apply Nat.eqb_neq, Ez|exact (IH eq_refl y Hy)].
Qed.

Theorem settled_spec pre x post : settled (pre ++ x :: post) = true -> forall y, In y post -> sID y <> spar x.
Proof.
  unfold settled. induction pre as [|p pre IH]; cbn [app fix_step].
  - destruct (insert_after_parent x post) eqn:E; [discriminate|]. intros _. exact (insert_after_none x post E).
  - destruct (insert_after_parent p _); [discriminate|]. destruct (fix_step (pre ++ x :: post)); [discriminate|]. exact IH.
Qed.

(* the order that did not load without the second loop: grandchild, parent, child *)
Example load_order_example :
  map skey (first_order [(0, 3, 2); (1, 1, 0); (2, 2, 1)]) = [2; 0; 1] /\
  map skey (load_order [(0, 3, 2); (1, 1, 0); (2, 2, 1)]) = [1; 2; 0] /\ settled (load_order [(0, 3, 2); (1, 1, 0); (2, 2, 1)]) = true.
Proof. vm_compute. repeat split. Qed.
