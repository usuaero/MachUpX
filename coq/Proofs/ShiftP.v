(* Model/Controls.v over the reals: control mixing, symmetry sign, span window and saturation of a section's flap deflection (C15), and
   the finite-difference step of a control derivative applied to a control input (C09, C15).  A deflection given as a span-wise table
   is moved as a whole - the input seen by every section changes by exactly the step, the span column and hence the end-point test
   of the control surface are untouched.  (Adding the step to the whole array, as the pinned snapshot did, moves the span column too:
   the end-point test then rejects the perturbed table whenever the step is not zero.) *)
From Coq Require Import Reals Lra List Bool.
From MuxV Require Import Base.Num Base.RInst Base.Interp Proofs.InterpP Model.Controls.
Import ListNotations.
Local Open Scope R_scope.

Section Deflection.
  Variable d2r : R.

  Fixpoint spec_sum (left_side : bool) (mx : list (mixing (T:=R))) (s : R) : R :=
    match mx with
    | [] => 0
    | (sym, k, c) :: r => (if (negb left_side || sym)%bool then 1 else -1) * k * input_at c true s + spec_sum left_side r s
    end.

  Lemma mix_sum_spec left_side mx m s acc :
    mix_sum left_side mx m s acc = acc + (if m then spec_sum left_side mx s else 0).
  Proof.
    revert acc; induction mx as [|[[sym k] c] r IH]; intros acc; cbn [mix_sum spec_sum]; [destruct m; ring|].
    rewrite IH. unfold mask01. rnum. destruct m, (negb left_side || sym)%bool; ring.
  Qed.

  Definition clip (sat x : R) : R := if Rlt_dec sat x then sat else if Rlt_dec x (- sat) then - sat else x.
  Lemma saturate_clip sat x : 0 <= sat -> saturate sat x = clip sat x.
  Proof.
    (* [clip] tests with [Rlt_dec], as Props/C15.v writes it; [Rltb] unfolds to the same tests *)
    unfold saturate, clip. rnum. unfold Rltb.
    destruct (Rlt_dec sat x); [destruct (Rlt_dec sat (- sat)); [lra|reflexivity]|].
    destruct (Rlt_dec x (- sat)); reflexivity.
  Qed.
  Lemma clip_bounded sat x : 0 <= sat -> - sat <= clip sat x <= sat.
  Proof. unfold clip. destruct (Rlt_dec sat x); [lra|]. destruct (Rlt_dec x (- sat)); lra. Qed.
  Lemma clip_inside sat x : - sat <= x <= sat -> clip sat x = x.
  Proof. unfold clip. destruct (Rlt_dec sat x); [lra|]. destruct (Rlt_dec x (- sat)); [lra|reflexivity]. Qed.

  Theorem delta_flap_spec left_side root tip sat mx s : 0 <= sat ->
    delta_flap d2r left_side root tip sat mx s =
      if in_surface root tip s then clip sat (spec_sum left_side mx s * d2r) else 0.
  Proof.
    intros Hs. unfold delta_flap. rewrite mix_sum_spec, saturate_clip by assumption. rnum.
    destruct (in_surface root tip s); [f_equal; ring|]. rewrite clip_inside by lra. ring.
  Qed.

  Theorem delta_flap_bounded left_side root tip sat mx s : 0 <= sat ->
    - sat <= delta_flap d2r left_side root tip sat mx s <= sat.
  Proof. intros Hs. unfold delta_flap. rewrite saturate_clip by assumption. apply clip_bounded, Hs. Qed.

  Lemma in_surface_iff root tip s : in_surface root tip s = true <-> root <= s <= tip.
  Proof. unfold in_surface. rewrite andb_true_iff, !Rleb_true. tauto. Qed.
End Deflection.

(* set_control_state: one entry per known control, whatever was stored before *)
Lemma replace_state_map {K} (eqb : K -> K -> bool) names (given : list (K * R)) :
  replace_state eqb names given =
    map (fun n => (n, match find (fun p => eqb (fst p) n) given with Some p => snd p | None => 0 end)) names.
Proof. induction names as [|n r IH]; [reflexivity|]. cbn [replace_state map]. rewrite IH. reflexivity. Qed.

(* what shift_input does to a table; the 0.0 added to the span column disappears over the reals *)
Definition shift_tbl (d : R) (tbl : list (R * R)) : list (R * R) := map (fun p => (fst p + 0, snd p + d)) tbl.
Lemma shift_tbl_cons d x y r : shift_tbl d ((x, y) :: r) = (x, y + d) :: shift_tbl d r.
Proof. cbn [shift_tbl map fst snd]. rewrite Rplus_0_r. reflexivity. Qed.

Lemma interp_go_shift d x xj yj rest : interp_go x xj (yj + d) (shift_tbl d rest) = interp_go x xj yj rest + d.
Proof.
  revert xj yj; induction rest as [|[x1 y1] r IH]; intros xj yj; [reflexivity|].
  rewrite shift_tbl_cons, (interp_go_eq x xj (yj + d)), (interp_go_eq x xj yj).
  destruct (Rleb x1 x); [apply IH|]. destruct (Reqb xj x); [reflexivity|]. unfold Rdiv. ring.
Qed.
Theorem interp_shift d x tbl : tbl <> [] -> interp x (shift_tbl d tbl) = interp x tbl + d.
Proof.
  destruct tbl as [|[x0 y0] r]; [congruence|]. intros _. rewrite shift_tbl_cons, !interp_cons.
  destruct (Rltb x x0); [reflexivity|]. apply interp_go_shift.
Qed.

(* a function cannot be perturbed: the code raises on function + float *)
Theorem input_at_shift (c : cinput R) d s :
  (match c with CConst _ => True | CTable tbl => tbl <> [] | CFun _ => False end) ->
  input_at (shift_input c d) true s = input_at c true s + d.
Proof. destruct c as [v|tbl|f]; [reflexivity|apply interp_shift|intros []]. Qed.

Lemma shift_tbl_fst d tbl : map fst (shift_tbl d tbl) = map fst tbl.
Proof. unfold shift_tbl. rewrite map_map. apply map_ext. intros p. apply Rplus_0_r. Qed.
Lemma last_map {A B} (f : A -> B) l a : last (map f l) (f a) = f (last l a).
Proof.
  revert a; induction l as [|x l IH]; intros a; [reflexivity|]. destruct l as [|y l]; [reflexivity|].
  apply IH.
Qed.
Lemma ends_ok_fst root tip tbl :
  table_ends_ok root tip (CTable tbl) = match map fst tbl with [] => false | (x :: _) as xs => Reqb x root && Reqb (last xs x) tip end.
Proof. destruct tbl as [|p r]; [reflexivity|]. cbn [table_ends_ok]. rewrite <- (last_map fst). reflexivity. Qed.
Theorem shift_keeps_ends (c : cinput R) d root tip : table_ends_ok root tip (shift_input c d) = table_ends_ok root tip c.
Proof.
  destruct c as [v|tbl|f]; try reflexivity.
  change (shift_input (CTable tbl) d) with (CTable (shift_tbl d tbl)). rewrite !ends_ok_fst, shift_tbl_fst. reflexivity.
Qed.

(* the pinned snapshot added the step to both columns *)
Definition shift_both (d : R) (tbl : list (R * R)) : list (R * R) := map (fun p => (fst p + d, snd p + d)) tbl.
Theorem shift_both_rejected d root tip tbl : d <> 0 ->
  table_ends_ok root tip (CTable tbl) = true -> table_ends_ok root tip (CTable (shift_both d tbl)) = false.
Proof.
  intros Hd. destruct tbl as [|[x0 y0] r]; [discriminate|].
  cbn [table_ends_ok shift_both map fst]. rnum.
  destruct (Reqb_spec x0 root) as [<-|]; [intros _ | discriminate]. destruct (Reqb_spec (x0 + d) x0); [lra | reflexivity].
Qed.
