(* Section dihedral of a quarter-chord curve given by points (C12): the angle derived from the points is the one whose
   span direction - as the integrands of the curve and the unswept section vectors use it - is the direction of the
   differenced chord in the y-z plane, on both sides and in every quadrant (vertical fins, pieces running back inboard).
   numpy.arctan2 enters through its specification; an instance built from atan shows that the specification is met. *)
From Coq Require Import Reals Lra List.
From MuxV Require Import Base.Vec3 Base.RInst Model.QCurve Proofs.QCurveP.
Import ListNotations.
Local Open Scope R_scope.

(* fixes the angle up to a full turn: the range of numpy.arctan2 is not part of it *)
Definition atan2_spec (atan2 : R -> R -> R) : Prop :=
  forall y x, (x <> 0 \/ y <> 0) -> cos (atan2 y x) = x / sqrt (x * x + y * y) /\ sin (atan2 y x) = y / sqrt (x * x + y * y).

Section Spec.
  Variable atan2 : R -> R -> R.
  Hypothesis Hspec : atan2_spec atan2.

  (* the direction in which the curve leaves a section with internal dihedral d: root + ds on the left with ds = -[cos, sin],
     root - ds on the right (Model/QCurve.v: ig_y, ig_z, qc_standard) *)
  Definition span_dir (left_side : bool) (d : R) : R * R := if left_side then (- cos d, - sin d) else (cos d, sin d).

  Theorem dihedral_points_direction left_side p0 p1 :
    let dy := vy p1 - vy p0 in
    let dz := vz p1 - vz p0 in
    dy <> 0 \/ dz <> 0 ->
    span_dir left_side (dihedral_points atan2 left_side p0 p1) = (dy / sqrt (dy * dy + dz * dz), dz / sqrt (dy * dy + dz * dz)).
  Proof.
    intros dy dz H. unfold span_dir, dihedral_points. rnum. fold dy dz. destruct left_side.
    - destruct (Hspec (- dz) (- dy)) as [Hc Hs]; [destruct H; [left | right]; lra|]. rewrite Hc, Hs.
      rewrite !Rmult_opp_opp, !Ropp_div, !Ropp_involutive. reflexivity.
    - destruct (Hspec dz dy H) as [Hc Hs]. rewrite Hc, Hs. reflexivity.
  Qed.

  (* equal cosine, opposite sine: d_left = - d_right up to a full turn *)
  Theorem dihedral_points_mirror p0 p1 :
    vy p1 - vy p0 <> 0 \/ vz p1 - vz p0 <> 0 ->
    let dr := dihedral_points atan2 false p0 p1 in
    let dl := dihedral_points atan2 true (mirror_y p0) (mirror_y p1) in
    cos dl = cos dr /\ sin dl = - sin dr.
  Proof.
    intros H dr dl. subst dr dl. unfold dihedral_points. cbn [mirror_y vy vz]. rnum.
    set (dy := vy p1 - vy p0) in *. set (dz := vz p1 - vz p0) in *.
    replace (- (- vy p1 - - vy p0)) with dy by (unfold dy; ring).
    destruct (Hspec dz dy H) as [Hc Hs]. destruct (Hspec (- dz) dy) as [Hc' Hs']; [destruct H; [left | right]; lra|].
    rewrite Hc, Hs, Hc', Hs', Rmult_opp_opp. split; [reflexivity | apply Ropp_div].
  Qed.
End Spec.

(* the x-advance of the curve per unit length in the y-z plane is +tan(internal sweep) on the left (root + ds) and -tan on the right
   (root - ds).  No hypothesis excludes a chord that is degenerate in the y-z plane: there both sides are 0 by Coq's x / 0 = 0, and
   the statement says nothing about the code. *)
Theorem sweep_points_direction (left_side : bool) (p0 p1 : v3 R) :
  let dy := vy p1 - vy p0 in
  let dz := vz p1 - vz p0 in
  (if left_side then tan (sweep_points atan (fun x => x * x) left_side p0 p1) else - tan (sweep_points atan (fun x => x * x) left_side p0 p1))
  = (vx p1 - vx p0) / sqrt (dy * dy + dz * dz).
Proof.
  unfold sweep_points. rnum. destruct left_side.
  - rewrite Ropp_involutive. apply atan_right_inv.
  - rewrite tan_neg, Ropp_involutive. apply atan_right_inv.
Qed.
Theorem sweep_points_mirror (p0 p1 : v3 R) :
  sweep_points atan (fun x => x * x) true (mirror_y p0) (mirror_y p1) = - sweep_points atan (fun x => x * x) false p0 p1.
Proof.
  unfold sweep_points. cbn [mirror_y vx vy vz]. rnum.
  replace ((- vy p1 - - vy p0) * (- vy p1 - - vy p0)) with ((vy p1 - vy p0) * (vy p1 - vy p0)) by ring. reflexivity.
Qed.

Definition atan2R (y x : R) : R :=
  match Rlt_dec 0 x with
  | left _ => atan (y / x)
  | right _ =>
    match Rlt_dec x 0 with
    | left _ => if Rle_dec 0 y then atan (y / x) + PI else atan (y / x) - PI
    | right _ => if Rlt_dec 0 y then PI / 2 else - (PI / 2)
    end
  end.

Lemma hyp_quot (x y : R) : x <> 0 -> sqrt (1 + (y / x)²) = sqrt (x * x + y * y) / Rabs x.
Proof.
  intros Hx. rewrite <- (sqrt_Rsqr_abs x), <- sqrt_div_alt by (apply Rlt_0_sqr, Hx).
  f_equal. unfold Rsqr. field. exact Hx.
Qed.

(* a point of the left half plane is reflected through the origin into the right one, and the half turn added to the angle
   reflects the direction back *)
Theorem atan2R_spec : atan2_spec atan2R.
Proof.
  intros y x H. unfold atan2R. destruct (Rlt_dec 0 x) as [Hx|Hx]; [apply atan_quot_direction, Hx|].
  destruct (Rlt_dec x 0) as [Hx'|Hx'].
  - destruct (atan_quot_direction (- x) (- y)) as [Hc Hs]; [lra|].
    replace (- y / - x) with (y / x) in Hc, Hs by (field; lra). rewrite !Rmult_opp_opp, Ropp_div in Hc, Hs.
    destruct (Rle_dec 0 y) as [Hy|Hy].
    + rewrite neg_cos, neg_sin, Hc, Hs. split; apply Ropp_involutive.
    + rewrite cos_minus, sin_minus, cos_PI, sin_PI, Hc, Hs. split; ring.
  - assert (x = 0) by lra. subst x.
    assert (Hy0 : y <> 0) by (destruct H; [lra | assumption]).
    replace (0 * 0 + y * y) with (y * y) by ring.
    destruct (Rlt_dec 0 y) as [Hy|Hy].
    + rewrite cos_PI2, sin_PI2, sqrt_square by lra. split; field; lra.
    + rewrite cos_neg, sin_neg, cos_PI2, sin_PI2.
      replace (y * y) with ((- y) * (- y)) by ring. rewrite sqrt_square by lra. split; field; lra.
Qed.
