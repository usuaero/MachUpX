(* Grouping of half-segments into wings (C12).  One lemma says what a pass of the while loop does ([pass_spec]); what the loop, the start of
   a wing and the loop over the originals keep of it is the relation [grows]: the wing is extended by half-segments of the aircraft that
   are recorded as assigned, and nothing assigned is forgotten. *)
From Coq Require Import List Bool.
From MuxV Require Import Model.Wings.
Import ListNotations.

(* [new]: the half-segments the pass takes, latest first; each of them was in no wing (wing_ID = -1), neither before the pass nor taken
   earlier in it.  [ext], what the wing grows by, is another list: a taken half-segment is appended once per matching connection
   ([repeat s k], k = [tries]) *)
Lemma pass_spec origs o jm segs l : incl l segs -> forall wing assigned added, exists ext new,
  pass origs o jm l wing assigned added = (wing ++ ext, new ++ assigned, match new with [] => added | _ => true end) /\
  incl ext new /\ incl new segs /\
  forall pre s post, new = pre ++ s :: post -> isin s (post ++ assigned) = false /\ isin s origs = false /\ cont s = true.
Proof.
  induction l as [|s r IH]; intros Hl wing assigned added; cbn [pass].
  - exists [], []. rewrite app_nil_r. split; [reflexivity|]. split; [apply incl_refl|]. split; [apply incl_nil_l|].
    intros [|] ? ? E; discriminate E.
  - apply incl_cons_inv in Hl. destruct Hl as [Hs Hr]. specialize (IH Hr).
    destruct (isin s origs || isin s assigned || negb (cont s)) eqn:Free; [apply IH|].
    destruct (tries o jm wing s) as [|k]; [apply IH|].
    apply orb_false_iff in Free. destruct Free as [Free Hc]. apply orb_false_iff in Free. destruct Free as [Ho Ha].
    apply negb_false_iff in Hc.
    destruct (IH (wing ++ repeat s (S k)) (s :: assigned) true) as (ext & new & -> & He & Hn & Hf).
    exists (repeat s (S k) ++ ext), (new ++ [s]). rewrite <- !app_assoc.
    split; [destruct new; reflexivity|]. split; [|split].
    + apply incl_app; [|apply incl_appl, He]. intros x Hx. apply repeat_spec in Hx. subst x. apply in_or_app. right. left. reflexivity.
    + apply incl_app; [exact Hn|]. intros x [<-|[]]. exact Hs.
    + (* s itself is the last of the new ones; the others were taken with s already assigned *)
      intros pre x post E. destruct post as [|y post _] using rev_ind.
      * apply app_inj_tail in E. destruct E as [_ <-]. auto.
      * rewrite app_comm_cons, app_assoc in E. apply app_inj_tail in E. destruct E as [E <-].
        rewrite <- app_assoc. exact (Hf _ _ _ E).
Qed.

Definition grows (segs wing assigned w a : list hs) : Prop :=
  exists ext, w = wing ++ ext /\ incl ext segs /\ incl ext a /\ incl assigned a.

Lemma grows_trans segs w0 a0 w1 a1 w2 a2 : grows segs w0 a0 w1 a1 -> grows segs w1 a1 w2 a2 -> grows segs w0 a0 w2 a2.
Proof.
  intros (e1 & -> & Hs1 & Ha1 & Hi1) (e2 & -> & Hs2 & Ha2 & Hi2). exists (e1 ++ e2).
  exact (conj (eq_sym (app_assoc _ _ _)) (conj (incl_app Hs1 Hs2) (conj (incl_app (incl_tran Ha1 Hi2) Ha2) (incl_tran Hi1 Hi2)))).
Qed.

Lemma grow_spec fuel origs o jm segs : forall wing assigned w a,
  grow fuel origs o jm segs wing assigned = Some (w, a) ->
  grows segs wing assigned w a /\ pass origs o jm segs w a false = (w, a, false).
Proof.
  induction fuel as [|f IH]; intros wing assigned w a; cbn [grow]; [discriminate|].
  destruct (pass_spec origs o jm segs segs (incl_refl _) wing assigned false) as (ext & new & Ep & He & Hn & _). rewrite Ep.
  assert (G : grows segs wing assigned (wing ++ ext) (new ++ assigned)).
  { exists ext. exact (conj eq_refl (conj (incl_tran He Hn) (conj (incl_appl _ He) (incl_appr _ (incl_refl _))))). }
  destruct new as [|n new].
  - intros [= <- <-]. split; [exact G|]. apply incl_l_nil in He. subst ext. rewrite app_nil_r in *. exact Ep.
  - intros E. apply IH in E. destruct E as [G' C]. split; [exact (grows_trans _ _ _ _ _ _ _ G G')|exact C].
Qed.

Lemma start_wing_spec segs o assigned :
  let '(w, a) := start_wing segs o assigned in grows segs [o] (o :: assigned) w a.
Proof.
  unfold start_wing. destruct (mir o && y0 o); [destruct (twin segs o) as [t|] eqn:Et|].
  2, 3: exists []; repeat split; auto using incl_nil_l, incl_refl.
  apply find_some in Et. exists [t]. repeat split; [intros x [<-|[]]; apply Et|intros x [<-|[]]; left; reflexivity|apply incl_tl, incl_refl].
Qed.

Definition heads (ws : list (list hs)) (os : list hs) : Prop := Forall2 (fun w o => exists r, w = o :: r) ws os.

Lemma heads_length ws os : heads ws os -> length ws = length os.
Proof. induction 1; cbn [length]; congruence. Qed.

Lemma build_spec segs origs : forall todo wings assigned ws a, incl todo segs ->
  build segs origs todo wings assigned = Some (ws, a) ->
  exists new, ws = wings ++ new /\ heads new todo /\ incl assigned a /\
    Forall (Forall (fun s => In s segs)) new /\ Forall (Forall (fun s => In s a)) new.
Proof.
  induction todo as [|o r IH]; intros wings assigned ws a Ht; cbn [build].
  - intros [= <- <-]. exists []. rewrite app_nil_r. repeat split; try constructor. apply incl_refl.
  - apply incl_cons_inv in Ht. destruct Ht as [Ho Hr].
    pose proof (start_wing_spec segs o assigned) as G0. destruct (start_wing segs o assigned) as [w0 a0].
    destruct (grow _ origs o (y0 o) segs w0 a0) as [[w a1]|] eqn:G; [|discriminate].
    apply grow_spec in G. destruct (grows_trans _ _ _ _ _ _ _ G0 (proj1 G)) as (ext & -> & Hs & Ha & Hi).
    intros B. apply (IH _ _ _ _ Hr) in B. destruct B as (new & -> & Hh & Hi' & Hfs & Hfa).
    exists ((o :: ext) :: new). rewrite <- app_assoc. apply incl_cons_inv in Hi. destruct Hi as [Hoa Hi].
    repeat split; [constructor; [eexists; reflexivity|exact Hh]|exact (incl_tran Hi Hi')| |].
    + constructor; [|exact Hfs]. apply incl_Forall_in_iff, incl_cons; assumption.
    + constructor; [|exact Hfa]. apply incl_Forall_in_iff, (incl_tran (incl_cons Hoa Ha) Hi').
Qed.

Theorem wings_spec segs ws a : build segs (originals segs) (originals segs) [] [] = Some (ws, a) ->
  heads ws (originals segs) /\ Forall (Forall (fun s => In s segs)) ws /\ Forall (Forall (fun s => In s a)) ws.
Proof. intros B. apply build_spec in B; [|apply incl_filter]. destruct B as (new & -> & Hh & _ & Hf). exact (conj Hh Hf). Qed.

Lemma isin_false s l : isin s l = false -> forall m, In m l -> keyeq s m = false.
Proof.
  intros H m Hm. destruct (keyeq s m) eqn:K; [|reflexivity]. rewrite <- H. symmetry. apply existsb_exists. exists m. split; assumption.
Qed.

(* non-vacuity: a two-sided main wing with a two-sided outer panel at its tip, and a one-sided fin carrying a two-sided T-tail *)
Example wings_example :
  let mainL := mk_hs 1 false true true false 0 false in let mainR := mk_hs 1 true true true false 0 false in
  let outL := mk_hs 2 false true true true 1 true in let outR := mk_hs 2 true true true true 1 true in
  let fin := mk_hs 3 true false true false 0 false in
  let ttL := mk_hs 4 false true true true 3 false in let ttR := mk_hs 4 true true true true 3 false in
  wings_of [mainL; mainR; outL; outR; fin; ttL; ttR] = Some [[mainR; mainL; outL; outR]; [fin]; [ttR; ttL]].
Proof. vm_compute. reflexivity. Qed.
